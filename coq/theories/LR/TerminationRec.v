(** Termination with error recovery: on validated tables every run ends, whatever the input.
    Inside error_recovery: the reductions under the error lookahead end (terminates certificate), every
    accepts simulation of the recovery-state scan ends, the token-dropping loop consumes the stream.
    Across recoveries: a recovery hands back a lookahead that the simulation has shown shiftable from
    the new stack, so the parser consumes it (or ends) before it can fail again -- no recovery loop.
    Last section: the expected list is exactly the shiftable terminals (C05; it needs [Shiftable] and
    [accepts_shiftable] from here). *)
From Coq Require Import List Arith Lia.
From LV Require Import LR.Driver LR.Validator LR.Machine LR.Safety LR.ValidatorSpec LR.NoPanic LR.Locality
                       LR.Termination LR.RecoverySound LR.NoPanicRec.
Import ListNotations.

Section TR.
Variable A : tables.
Variable C : cert.
Hypothesis Hshape : shape A C = true.
Hypothesis Hexact : exact A C = true.
Hypothesis Hterm : terminates A C = true.
Variable orc : oracle.

Notation core := (core C).
Notation Linked := (Linked A core).
Notation SLinked := (SLinked A C).
Notation L := (L A C).
Notation item_ok := (RecoverySound.item_ok A).
Notation bnd := (bound A C).
Notation errc := (err_col_lt A C Hshape).

Lemma bnd_mono a b : a <= b -> bnd a <= bnd b.
Proof.
  intros H. unfold bound, lvl. apply Nat.add_le_mono_r, Nat.mul_le_mono_r, Nat.add_le_mono_l, Nat.mul_le_mono_r. exact H.
Qed.

(** the lookahead can be consumed from this state vector: the reductions it triggers end in a shift
    (or in the accepting reduction) *)
Inductive Shiftable (a : la) : list nat -> Prop :=
| sh_shift l s' : tact A (hd 0 l) a = AShift s' -> Shiftable a l
| sh_acc l : tact A (hd 0 l) a = AReduce (start_prod A) -> Shiftable a l
| sh_red l l' : sred A a l = Some l' -> Shiftable a l' -> Shiftable a l.

Lemma err_not_shiftable a l : tact A (hd 0 l) a = AErr -> ~ Shiftable a l.
Proof.
  intros Ht H. inversion H as [l0 s' Hs|l0 Hs|l0 l' Hs _]; subst.
  - congruence.
  - congruence.
  - unfold sred in Hs. rewrite Ht in Hs. discriminate.
Qed.

Lemma shiftable_step a l l' : sred A a l = Some l' -> Shiftable a l -> Shiftable a l'.
Proof.
  intros Hs H. inversion H as [l0 s' Ht|l0 Ht|l0 l1 Hs1 H1]; subst.
  - unfold sred in Hs. rewrite Ht in Hs. discriminate.
  - unfold sred in Hs. rewrite Ht, Nat.eqb_refl in Hs. discriminate.
  - rewrite Hs in Hs1. inversion Hs1; subst. exact H1.
Qed.

Lemma accepts_shiftable : forall f l a, SLinked l -> la_ok A a ->
  match accepts A f l a with ATrue => Shiftable a l | AFalse => ~ Shiftable a l | _ => True end.
Proof.
  induction f as [|f IH]; intros l a HL Ha; [exact I|].
  pose proof (accepts_S A C Hshape Hexact f l a HL Ha) as HS.
  destruct (tact A (hd 0 l) a) as [t|p| |] eqn:Ht.
  - rewrite HS. exact (sh_shift a l t Ht).
  - destruct (Nat.eqb_spec p (start_prod A)) as [->|Hne]; [rewrite HS; exact (sh_acc a l Ht)|].
    destruct HS as (Hlen & HL' & ->). pose proof (sred_reduce A a l p Ht Hne Hlen) as Hs. specialize (IH _ a HL' Ha).
    destruct (accepts A f (spop A p l) a).
    + exact (sh_red a l _ Hs IH).
    + intros H. exact (IH (shiftable_step a l _ Hs H)).
    + exact I.
    + exact I.
  - rewrite HS. exact (err_not_shiftable a l Ht).
  - destruct HS.
Qed.

Lemma accepts_true_shiftable : forall f l a, SLinked l -> la_ok A a -> accepts A f l a = ATrue -> Shiftable a l.
Proof. intros f l a HL Ha H. pose proof (accepts_shiftable f l a HL Ha) as X. rewrite H in X. exact X. Qed.

Lemma accepts_false_not_shiftable : forall f l a, SLinked l -> la_ok A a -> accepts A f l a = AFalse -> ~ Shiftable a l.
Proof. intros f l a HL Ha H. pose proof (accepts_shiftable f l a HL Ha) as X. rewrite H in X. exact X. Qed.

Lemma pre_reduce_halts_n : uses_recovery A = true -> forall n s la, Linked (stk s) ->
  siter A n (Some (err_col A)) (states_of (stk s)) = None -> forall f, n <= f -> pre_reduce A orc f la s <> PrFuel.
Proof.
  intros Hu. induction n as [|n IH]; intros s la HL Hs f Hf; [discriminate|].
  destruct f as [|f]; [lia|]. rewrite pre_reduce_S.
  destruct (tact A (top_state (stk s)) (Some (err_col A))) as [t|p| |] eqn:Ht; [discriminate| |discriminate..].
  pose proof (reduce_facts A C Hshape Hexact orc (stk s) (Some (err_col A)) p la HL (errc Hu) Ht) as Hred.
  destruct (reduce A orc p la (stk s)) as [[|r|st'] ev] eqn:E; [discriminate|discriminate|].
  pose proof (reduce_cont_sred A C Hshape Hexact orc (stk s) (Some (err_col A)) p la st' ev HL (errc Hu) Ht E) as Hsr.
  inversion Hred as [| |st2 lo hi kids Hne Ho Hkids Hst' HL' Hlen Heq]; subst.
  apply IH; [exact HL'| |lia].
  cbn [siter] in Hs. rewrite Hsr in Hs. exact Hs.
Qed.

Lemma pre_reduce_halts : uses_recovery A = true -> forall s la f, Linked (stk s) ->
  bnd (length (states_of (stk s))) <= f -> pre_reduce A orc f la s <> PrFuel.
Proof.
  intros Hu s la f HL Hf.
  apply (pre_reduce_halts_n Hu _ s la HL (reduce_phase_halts A C Hshape Hterm (Some (err_col A)) _ (errc Hu) (slinked_of_linked A C _ HL)) f Hf).
Qed.

Lemma find_state_halts la : la_ok A la -> uses_recovery A = true -> forall st j f, Linked st ->
  bnd (S (length (states_of st))) <= f -> find_state A f st j la <> FsFuel.
Proof.
  intros Hla Hu st j f HL Hf E.
  destruct (find_state_here A f la st j _ E ltac:(discriminate)) as (d & Hd & Hh). unfold fs_here in Hh.
  destruct (act_at A (top_state (skipn d st)) (err_col A)) as [a|] eqn:Ea; [|discriminate].
  destruct (as_shift a) as [es|] eqn:Es; [|discriminate].
  pose proof (shift_err_slinked A C Hshape _ a es Hu (linked_skipn A core d st HL) Ea Es) as HS.
  apply (accepts_bounded A C Hshape Hexact Hterm _ la f HS Hla).
  - eapply Nat.le_trans; [|exact Hf]. apply bnd_mono. cbn [length]. rewrite !length_states_of, skipn_length. lia.
  - destruct (accepts A f (es :: states_of (skipn d st)) la); congruence.
Qed.

Lemma find_loop_halts : uses_recovery A = true -> forall n err la d s f, Linked (stk s) -> Forall item_ok (rest s) ->
  la_cond A la -> (la <> None -> length (rest s) < n) ->
  bnd (S (length (states_of (stk s)))) <= f -> fl_nofuel (find_loop A f n err la d s).
Proof.
  intros Hu n err la d s f. pattern (find_loop A f n err la d s). revert n la d s. apply (find_loop_ind' A f err).
  - intros; exact I.
  - (* the scan does not run out of budget *)
    intros n la d s E HL _ Hla _ Hf. destruct (find_state_halts _ (la_cond_ok A la Hla) Hu (stk s) 0 f HL Hf E).
  - intros; exact I.
  - intros; exact I.
  - (* nor does the loop: it was given more turns than there are tokens left *)
    intros d s k i _ _ _ _ Hn _. specialize (Hn ltac:(discriminate)). lia.
  - (* the lookahead is dropped; the search goes on with what the stream gives *)
    intros n d s k i _ IH HL Hok Hla Hn Hf. specialize (Hn ltac:(discriminate)).
    unfold next_token. cbn [rest stk log]. destruct (rest s) as [|[k'|e] r] eqn:Er; [| |exact I].
    + apply IH; cbn [stk rest log]; [exact HL|rewrite Er; constructor|discriminate|congruence|exact Hf].
    + inversion Hok as [|? ? Hk Hok']; subst. cbn in Hk, Hn. unfold tok_ok in Hk. destruct (tk_idx k') as [i'|] eqn:Ei.
      * apply IH; cbn [stk rest]; [exact HL|exact Hok'| |intros _; lia|exact Hf].
        intros k0 i0 E. inversion E; subst. split; assumption.
      * (* an unknown token ends the search with an error whose report needs the expected list *)
        cbn [fl_nofuel]. destruct (unrec_error A f _ (Some k')) eqn:E; [exact I..|].
        apply (fun H1 H2 => unrec_halts A C Hshape Hexact Hterm f _ _ H1 H2 E); [exact HL|].
        eapply Nat.le_trans; [|exact Hf]. apply bnd_mono. cbn [stk]. lia.
Qed.

(* what the loops leave of the state, for any tables *)
Lemma next_token_shape f s x s1 : next_token A f s = (x, s1) ->
  stk s1 = stk s /\ length (rest s1) <= length (rest s) /\
  match x with Found _ _ => length (rest s1) < length (rest s) | _ => True end.
Proof.
  unfold next_token. destruct (rest s) as [|[k|e] r] eqn:Er; intros H.
  - inversion H; subst. cbn. rewrite Er. auto.
  - destruct (tk_idx k); inversion H; subst; cbn; auto.
  - inversion H; subst. cbn. auto.
Qed.

Lemma find_loop_found f : forall n err la d s j la' d' s1, find_loop A f n err la d s = FlFound j la' d' s1 ->
  stk s1 = stk s /\ length (rest s1) <= length (rest s) /\ find_state A f (stk s1) 0 (option_map snd la') = FsFound j.
Proof.
  intros n err la d s. pattern (find_loop A f n err la d s). revert n la d s.
  apply (find_loop_ind' A f err); try (intros; discriminate).
  - intros n la d s j E j' la' d' s1 [= <- <- <- <-]. auto.
  - intros n d s k i _ IH j la' d' s1 H. destruct (next_token A f (log s (Drop (npulled s - 1)))) as [x s0] eqn:En.
    destruct (next_token_shape _ _ _ _ En) as (Hs & Hl & _). cbn [stk rest log] in Hs, Hl.
    destruct x as [k' i'| |r].
    + destruct (IH _ _ _ _ _ _ H) as (H1 & H2 & H3). split; [congruence|split; [lia|exact H3]].
    + destruct (IH _ _ _ _ _ _ H) as (H1 & H2 & H3). split; [congruence|split; [lia|exact H3]].
    + discriminate.
Qed.

Lemma reduce_done_nofuel p la st r ev : reduce A orc p la st = (RdDone r, ev) -> r <> RFuel.
Proof. intros E. destruct (reduce_done_cases A orc _ _ _ _ _ E) as [(v & -> & _)|[x ->]]; discriminate. Qed.

Lemma pre_reduce_done_nofuel : forall f la s r s1, pre_reduce A orc f la s = PrDone r s1 -> r <> RFuel.
Proof.
  induction f as [|f IH]; intros la s r s1 H; [discriminate|]. rewrite pre_reduce_S in H.
  destruct (tact A (top_state (stk s)) (Some (err_col A))) as [t|p| |]; [discriminate| |discriminate..].
  destruct (reduce A orc p la (stk s)) as [[|r0|k0] ev] eqn:E; [discriminate| |exact (IH _ _ _ _ H)].
  inversion H; subst. exact (reduce_done_nofuel _ _ _ _ _ E).
Qed.

Lemma error_recovery_halts la s : Linked (stk s) -> Forall item_ok (rest s) -> la_cond A la ->
  exists f, next_nofuel (error_recovery A orc f la s).
Proof.
  intros HL Hok Hla.
  set (la0 := option_map (fun l => tk_lo (fst l)) la).
  set (f1 := bnd (length (states_of (stk s)))).
  (* the scan needs a budget for the stack that the reductions under the error lookahead leave; they
     leave the same stack under that larger budget *)
  set (f2 := match pre_reduce A orc f1 la0 s with PrBreak s1 => bnd (S (length (states_of (stk s1)))) | _ => 0 end).
  exists (Nat.max f1 f2). rewrite error_recovery_eq. fold la0.
  pose proof (unrec_halts A C Hshape Hexact Hterm _ s (option_map fst la) HL (Nat.le_max_l f1 f2)) as Hun.
  destruct (uses_recovery A) eqn:Hu; cbn [negb].
  2: { (* no recovery *)
    destruct (unrec_error A _ s (option_map fst la)); [exact I..|exact (Hun eq_refl)]. }
  destruct (unrec_error A _ s (option_map fst la)) as [v|err| |]; [exact I| |exact I|exact (Hun eq_refl)].
  pose proof (pre_reduce_halts Hu s la0 f1 HL (le_n _)) as Hp1.
  pose proof (pre_reduce_L A C Hshape Hexact orc f1 err (mode_of la) s (mode_of_not_need la)
                (conj (la_cond_L A C la s HL Hok Hla) Hu)) as HpL.
  rewrite mlo_mode_of in HpL. fold la0 in HpL.
  rewrite (pre_reduce_mono A orc f1 _ (Nat.le_max_l f1 f2) la0 s Hp1). subst f2.
  destruct (pre_reduce A orc f1 la0 s) as [| |r s1|s1] eqn:Ep1; [exact I|congruence| |].
  - pose proof (pre_reduce_done_nofuel _ _ _ _ _ Ep1) as Hr. destruct r; [exact I..|exact (Hr eq_refl)].
  - destruct HpL as [(HL1 & Hok1 & _) _].
    pose proof (find_loop_halts Hu (S (length (rest s1))) err la [] s1 _ HL1 Hok1 Hla ltac:(intros _; lia) (Nat.le_max_r f1 _)) as Hfl.
    destruct (find_loop A _ (S (length (rest s1))) err la [] s1) as [| |r s2|j la' dropped s2].
    + exact I.
    + (* out of budget, the scan or the loop *) destruct Hfl.
    + (* the search ended with an answer *) destruct r; [exact I..|destruct Hfl].
    + (* a recovery state found *)
      unfold er_resume. destruct (act_at A (top_state (skipn j (stk s2))) (err_col A)) as [a|]; [|exact I].
      destruct (as_shift a); [|exact I]. destruct la' as [[k i]|]; exact I.
Qed.

Definition la_of (x : next) : option la := match x with Found _ i => Some (Some i) | NEof => Some None | NDone _ => None end.

Lemma error_recovery_shiftable f la s x s3 : Linked (stk s) -> Forall item_ok (rest s) -> la_cond A la ->
  error_recovery A orc f la s = (x, s3) ->
  match la_of x with
  | Some a => Shiftable a (states_of (stk s3)) /\ length (rest s3) <= length (rest s)
  | None => True
  end.
Proof.
  (* x and s3 become the projections of the call, so that its case analysis decides them; every answer but a lookahead
     handed back is NDone: nothing to show *)
  intros HL Hok Hla H. rewrite (surjective_pairing (error_recovery A orc f la s)) in H. injection H as <- <-.
  rewrite error_recovery_eq. destruct (uses_recovery A) eqn:Hu; cbn [negb]; [|exact I].
  destruct (unrec_error A f s (option_map fst la)) as [v|err| |]; [exact I| |exact I..].
  (* the path of transitions from the start of the recovery to the stack on which the scan succeeds *)
  pose proof (pre_reduce_arrives A orc f err (mode_of la) _ _ _ (mode_of_not_need la) f s (ar_here A orc f _ _ _)) as Ha.
  rewrite mlo_mode_of in Ha.
  destruct (pre_reduce A orc f _ s) as [| |r s1|s1]; [exact I..|].
  pose proof (find_loop_arrives A orc f err _ _ _ (S (length (rest s1))) [] la s1 Ha) as Hp.
  destruct (find_loop A f (S (length (rest s1))) err la [] s1) as [| |r s2|j la' dropped s2]; [exact I..|].
  destruct Hp as [Hp Hfs].
  destruct (arrives_invariant A orc f _ _ (L_invariant A C Hshape Hexact orc f) _ _ _ _ Hp
              (conj (la_cond_L A C la s HL Hok Hla) Hu)) as [HL2 _].
  pose proof (arrives_invariant A orc f _ _ (stream_invariant A orc f (length (rest s))) _ _ _ _ Hp (le_n _)) as Hr2.
  (* there the simulation has accepted the lookahead on the kept stack with the error state pushed *)
  destruct (find_state_true A f _ _ _ _ Hfs) as (d & Hd & _ & a & es & Ea & Es & Hacc). cbn [Nat.add] in Hd. subst d.
  unfold er_resume. rewrite Ea, Es.
  pose proof (shift_err_slinked A C Hshape _ a es Hu (linked_skipn A core j _ (proj1 HL2)) Ea Es) as HS.
  pose proof (accepts_true_shiftable f _ _ HS (L_la_ok A C _ s2 HL2) Hacc) as Hsh. rewrite mla_mode_of in Hsh.
  destruct la' as [[k i]|]; exact (conj Hsh Hr2).
Qed.

(* the body of [Termination.Halt]: the two are convertible, and [halt_need] below passes from one to the other *)
Definition Halt (m : mode) (s : pst) : Prop := exists f n, fst (run A orc f n m s) <> RFuel.

Lemma halt_cont f m s m' s' : step A orc f m s = Cont m' s' -> Halt m' s' -> Halt m s.
Proof. exact (Termination.halt_cont A orc f m s m' s'). Qed.

Lemma halt_fin f m s r s' : step A orc f m s = Fin r s' -> r <> RFuel -> Halt m s.
Proof. exact (Termination.halt_fin A orc f m s r s'). Qed.

Lemma no_shift_at_eof top : top < n_states A -> forall s', tact A top None <> AShift s'.
Proof.
  intros Ht s' H. pose proof (act_ok_of A C Hshape top None Ht I) as Hok. unfold act_ok in Hok. rewrite H in Hok. discriminate.
Qed.

(* [Termination.step_phase_L] as a view *)
Inductive phase_step (a : la) (la_tok : option (token * nat)) (m : mode) (s : pst) (f : nat) : sres -> Prop :=
| ps_need s' : m <> MEof -> rest s' = rest s -> L MNeed s' -> phase_step a la_tok m s f (Cont MNeed s')
| ps_red s' : rest s' = rest s -> L m s' -> sred A a (states_of (stk s)) = Some (states_of (stk s')) ->
    phase_step a la_tok m s f (Cont m s')
| ps_fin r s' : r <> RFuel -> phase_step a la_tok m s f (Fin r s')
| ps_err : tact A (top_state (stk s)) a = AErr ->
    phase_step a la_tok m s f
      (match error_recovery A orc f la_tok s with
       | (Found k' i', s1) => match m with MEof => Fin RPanic s1 | _ => Cont (MHave k' i') s1 end
       | (NEof, s1) => Cont MEof s1
       | (NDone r, s1) => Fin r s1
       end).

Lemma step_phase_view f m s : m <> MNeed -> L m s -> phase_step (mla m) (mtok m) m s f (step A orc f m s).
Proof.
  intros Hm HLs. pose proof (step_phase_L A C Hshape Hexact orc f m s Hm HLs) as H.
  destruct (tact A (top_state (stk s)) (mla m)) eqn:Ht.
  - destruct H as (s' & -> & Hme & Hr & HL'). exact (ps_need _ _ _ _ _ s' Hme Hr HL').
  - destruct H as [(r & s' & -> & Hr)|(s' & -> & Hr & HL' & Hsr)]; [exact (ps_fin _ _ _ _ _ r s' Hr)|exact (ps_red _ _ _ _ _ s' Hr HL' Hsr)].
  - rewrite H. exact (ps_err _ _ _ _ _ Ht).
  - destruct H.
Qed.

Lemma step_have_phase f k i s : L (MHave k i) s -> phase_step (Some i) (Some (k, i)) (MHave k i) s f (step A orc f (MHave k i) s).
Proof. apply (step_phase_view f (MHave k i) s). discriminate. Qed.

Lemma step_eof_phase f s : L MEof s -> phase_step None None MEof s f (step A orc f MEof s).
Proof. apply (step_phase_view f MEof s). discriminate. Qed.

(* phases whose lookahead is known to be consumable never reach recovery *)
Lemma halt_shiftable m a la_tok : (forall f s, L m s -> phase_step a la_tok m s f (step A orc f m s)) ->
  forall n s, L m s -> Shiftable a (states_of (stk s)) -> siter A n a (states_of (stk s)) = None ->
  (m <> MEof -> forall s', L MNeed s' -> rest s' = rest s -> Halt MNeed s') -> Halt m s.
Proof.
  intros Hph. induction n as [|n IH]; intros s HLs Hsh Hs Hneed; [discriminate|].
  pose proof (Hph 0 s HLs) as Hp. remember (step A orc 0 m s) as x eqn:E. symmetry in E.
  destruct Hp as [s' Hm Hr HL'|s' Hr HL' Hsr|r s' Hr|Hte].
  - apply (halt_cont 0 _ _ _ _ E). apply Hneed; assumption.
  - apply (halt_cont 0 _ _ _ _ E). apply IH; [exact HL'|exact (shiftable_step _ _ _ Hsr Hsh)| |].
    + cbn [siter] in Hs. rewrite Hsr in Hs. exact Hs.
    + intros Hm s2 H2 Hr2. apply (Hneed Hm); [exact H2|congruence].
  - apply (halt_fin 0 _ _ _ _ E Hr).
  - exfalso. apply (err_not_shiftable a (states_of (stk s))); [rewrite hd_states_of; exact Hte|exact Hsh].
Qed.

Lemma L_linked m s : L m s -> Linked (stk s).
Proof. intros (H & _). exact H. Qed.

Lemma halt_shiftable_L m s : m <> MNeed -> L m s -> Shiftable (mla m) (states_of (stk s)) ->
  (m <> MEof -> forall s', L MNeed s' -> rest s' = rest s -> Halt MNeed s') -> Halt m s.
Proof.
  intros Hm HLs Hsh.
  exact (halt_shiftable m (mla m) (mtok m) (fun f s => step_phase_view f m s Hm) _ s HLs Hsh
           (reduce_phase_halts A C Hshape Hterm (mla m) _ (L_la_ok A C m s HLs) (slinked_of_linked A C _ (L_linked _ _ HLs)))).
Qed.

Lemma halt_eof_shiftable s : L MEof s -> Shiftable None (states_of (stk s)) -> Halt MEof s.
Proof.
  intros HLs Hsh. apply (halt_shiftable_L MEof s ltac:(discriminate) HLs Hsh). intros H. exfalso. apply H. reflexivity.
Qed.

Lemma halt_have_shiftable k i s : L (MHave k i) s -> Shiftable (Some i) (states_of (stk s)) ->
  (forall s', L MNeed s' -> rest s' = rest s -> Halt MNeed s') -> Halt (MHave k i) s.
Proof. intros HLs Hsh Hneed. exact (halt_shiftable_L (MHave k i) s ltac:(discriminate) HLs Hsh (fun _ => Hneed)). Qed.

Lemma halt_after_recovery f la m s :
  L m s -> la_cond A la -> next_nofuel (error_recovery A orc f la s) ->
  (m <> MEof -> forall s', L MNeed s' -> length (rest s') <= length (rest s) -> Halt MNeed s') ->
  forall x, step A orc f m s = x ->
  x = (match error_recovery A orc f la s with
       | (Found k' i', s1) => match m with MEof => Fin RPanic s1 | _ => Cont (MHave k' i') s1 end
       | (NEof, s1) => Cont MEof s1
       | (NDone r, s1) => Fin r s1
       end) -> Halt m s.
Proof.
  intros HLs Hla Hnf Hneed x E Hx. rewrite Hx in E. clear Hx.
  pose proof (step_L A C Hshape Hexact orc f _ _ HLs) as Hinv. rewrite E in Hinv.
  pose proof (error_recovery_shiftable f la s _ _ (L_linked _ _ HLs) (proj1 (proj2 HLs)) Hla (surjective_pairing _)) as Hsh.
  destruct (error_recovery A orc f la s) as [[k' i'| |r] s1]; cbn [fst snd la_of] in Hsh.
  - destruct Hsh as [Hsh Hlen]. destruct m as [|k i|].
    + apply (halt_cont f _ _ _ _ E), (halt_have_shiftable k' i' s1 Hinv Hsh).
      intros s' HL' Hr'. apply (Hneed ltac:(discriminate) s' HL'). rewrite Hr'. exact Hlen.
    + apply (halt_cont f _ _ _ _ E), (halt_have_shiftable k' i' s1 Hinv Hsh).
      intros s' HL' Hr'. apply (Hneed ltac:(discriminate) s' HL'). rewrite Hr'. exact Hlen.
    + exact (halt_fin f _ _ _ _ E ltac:(discriminate)).
  - apply (halt_cont f _ _ _ _ E), (halt_eof_shiftable s1 Hinv (proj1 Hsh)).
  - apply (halt_fin f _ _ _ _ E). destruct r; [discriminate..|destruct Hnf].
Qed.

(** with recovery, an error entry is followed by a recovery that ends and hands back a lookahead that
    will be shifted *)
Lemma halt_phase_rec m s : m <> MNeed -> L m s -> (m <> MEof -> NeedBelow A C orc (length (rest s))) -> Halt m s.
Proof.
  intros Hm. apply (halt_phase A C Hshape Hexact Hterm orc m Hm). clear s. intros s HLs Ht Hneed.
  destruct (error_recovery_halts (mtok m) s (L_linked _ _ HLs) (proj1 (proj2 HLs)) (L_la_cond A C m s HLs)) as [f0 Hf0].
  apply (halt_after_recovery f0 (mtok m) m s HLs (L_la_cond A C m s HLs) Hf0 Hneed _ eq_refl).
  pose proof (step_phase_L A C Hshape Hexact orc f0 m s Hm HLs) as E. rewrite Ht in E. exact E.
Qed.

Lemma halt_need : forall len s, length (rest s) <= len -> L MNeed s -> Halt MNeed s.
Proof. intros len s Hlen HLs. exact (Termination.halt_need A C Hshape Hexact Hterm orc halt_phase_rec len s HLs Hlen). Qed.

Theorem parser_terminates_rec (input : list item) : Forall item_ok input ->
  exists n, forall fuel, n <= fuel -> fst (drive A orc fuel input) <> RFuel.
Proof.
  intros Hin. apply (halt_budget A orc). apply (halt_need _ (init input) (le_n _)). repeat split; cbn; auto.
Qed.
End TR.

(** the expected-token list, exactly: on validated tables the listed terminals are precisely those the
    parser itself would consume next from the configuration in which the error is reported (the
    reductions they trigger end in their shift) -- the list is complete for the automaton *)
Section Expected.
Variable A : tables.
Variable C : cert.
Hypothesis Hshape : shape A C = true.
Hypothesis Hexact : exact A C = true.

Notation SLinked := (SLinked A C).
Notation Shiftable := (Shiftable A).

Lemma expected_go_complete f l : forall n i L x, expected_go A f l i n = EList L -> i <= x < i + n ->
  accepts A f l (Some x) = ATrue -> In x L.
Proof.
  intros n i L x H Hx Hacc. pose proof (expected_go_spec A f l n i) as Hs. rewrite H in Hs. destruct Hs as [-> _].
  apply filter_In. split; [apply in_seq; exact Hx|]. unfold acc_true. rewrite Hacc. reflexivity.
Qed.

Lemma expected_go_total f l : forall n i L x, expected_go A f l i n = EList L -> i <= x < i + n ->
  accepts A f l (Some x) = ATrue \/ accepts A f l (Some x) = AFalse.
Proof.
  intros n i L x H Hx. pose proof (expected_go_spec A f l n i) as Hs. rewrite H in Hs. exact (proj2 Hs x Hx).
Qed.

Theorem expected_exactly_the_shiftable_terminals f l L : SLinked l ->
  expected_go A f l 0 (tn_names A) = EList L ->
  forall x, x < tn_names A -> (In x L <-> Shiftable (Some x) l).
Proof.
  intros HL HE x Hx.
  assert (Hla : la_ok A (Some x)) by (cbn; pose proof (names_le A C Hshape); lia).
  split.
  - intros Hin. destruct (expected_go_in A f l _ _ _ _ HE Hin) as [Hacc _].
    exact (accepts_true_shiftable A C Hshape Hexact f l (Some x) HL Hla Hacc).
  - intros Hsh. apply (expected_go_complete f l _ 0 L x HE); [lia|].
    destruct (expected_go_total f l _ 0 L x HE ltac:(lia)) as [H|H]; [exact H|].
    exfalso. exact (accepts_false_not_shiftable A C Hshape Hexact f l (Some x) HL Hla H Hsh).
Qed.
End Expected.
