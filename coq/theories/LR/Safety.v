(** Stack invariant of the table-driven parser under the [exact] validator conditions (given here as
    section hypotheses; LR/ValidatorSpec.v derives them from [valid A C = true]):
    consecutive stack entries are linked by justified automaton edges, every tree on the stack is
    well formed for its edge label, a reduce pops exactly its right-hand side and never panics. *)
From Coq Require Import List Arith Lia.
From LV Require Import LR.Driver LR.Validator.
Import ListNotations.

Lemma firstn_skipn_snoc {X} (l : list X) j k x : nth_error l (j + k) = Some x ->
  firstn k (skipn j l) ++ [x] = firstn (S k) (skipn j l).
Proof.
  revert l. induction j as [|j IHj]; intros l H.
  - cbn [skipn Nat.add] in *. revert l H. induction k as [|k IHk]; intros [|y l] H.
    + discriminate.
    + cbn in *. now inversion H.
    + discriminate.
    + cbn in *. f_equal. now apply IHk.
  - destruct l; [discriminate|exact (IHj l H)].
Qed.

Lemma Forall2_map_map {X Y Z} (R : Y -> Z -> Prop) (f : X -> Y) (g : X -> Z) l :
  Forall (fun x => R (f x) (g x)) l -> Forall2 R (map f l) (map g l).
Proof. induction 1; cbn [map]; constructor; assumption. Qed.

Lemma Forall_firstn {X} (P : X -> Prop) k l : Forall P l -> Forall P (firstn k l).
Proof. revert l; induction k; intros [|x l] H; simpl; auto. inversion H; subst. constructor; auto. Qed.
Lemma Forall_skipn {X} (P : X -> Prop) k l : Forall P l -> Forall P (skipn k l).
Proof. revert l; induction k; intros [|x l] H; simpl; auto. inversion H; auto. Qed.

Section Safety.
Variable A : tables.
Notation lhs := (lhs A).
Notation rhs := (rhs A).
Notation tact := (tact A).

Inductive wf : tree -> sym -> Prop :=
| wf_leaf k t : tk_idx k = Some t -> t < tn_term A -> wf (Leaf k) (Tm t)
| wf_err e d lo hi : wf (ErrLeaf e d lo hi) (Tm (err_col A))
| wf_node p kids : p < length (prods A) -> Forall2 wf kids (rhs p) -> wf (Node p kids) (Nt (lhs p)).

Lemma nth_error_prods p : p < length (prods A) -> nth_error (prods A) p = Some (lhs p, rhs p).
Proof.
  intros H. unfold Validator.lhs, Validator.rhs.
  rewrite (nth_error_nth' _ (0, []) H). destruct (nth p (prods A) (0, [])); reflexivity.
Qed.

Lemma wf_sym_of t X : wf t X -> sym_of A t = Some X.
Proof.
  destruct 1 as [k t Hk Ht|e d lo hi|p kids Hp Hk]; simpl.
  - now rewrite Hk.
  - reflexivity.
  - now rewrite (nth_error_prods _ Hp).
Qed.

(* The conditions of [exact], as hypotheses.  EXK: the kernel items of an edge's target come from its source
   (kernel_ok); EXC: an item at dot 0 has a parent in its state (closure_ok); EX0, E0: state 0 holds only items
   at dot 0 and has no incoming edge; RJ: a reduce entry has its complete item (reduces_ok). *)
Variable core : nat -> nat -> nat -> Prop.      (* state, production, dot *)

Inductive edge : nat -> sym -> nat -> Prop :=
| e_shift s x s' : x < tn_term A -> tact s (Some x) = AShift s' -> edge s (Tm x) s'
| e_goto s B p d : core s p d -> nth_error (rhs p) d = Some (Nt B) -> edge s (Nt B) (goto_at A s B).

Hypothesis EXK : forall s X s', edge s X s' -> forall p d', core s' p d' -> 0 < d' ->
  exists d, d' = S d /\ nth_error (rhs p) d = Some X /\ core s p d.
Hypothesis EXC : forall s q, core s q 0 ->
  (s = 0 /\ q = start_prod A) \/
  exists p d, core s p d /\ nth_error (rhs p) d = Some (Nt (lhs q)).
Hypothesis EX0 : forall p d, core 0 p d -> d = 0.
Hypothesis E0 : forall s X s', edge s X s' -> s' <> 0.
Definition la_ok (a : la) : Prop := match a with Some t => t < tn_term A | None => True end.
Hypothesis RJ : forall s a p, la_ok a -> tact s a = AReduce p -> core s p (length (rhs p)) /\ p < length (prods A).
Hypothesis start_fresh : forall p, p < length (prods A) -> ~ In (Nt (lhs (start_prod A))) (rhs p).
Hypothesis core_lt : forall s p d, core s p d -> p < length (prods A).

(* the default Tm 0 is never read: a well-formed tree has its symbol ([wf_sym_of]) *)
Definition esym (e : entry) : sym := match sym_of A (e_tree e) with Some X => X | None => Tm 0 end.

Fixpoint Linked (st : list entry) : Prop :=
  match st with
  | [] => True
  | e :: below => wf (e_tree e) (esym e) /\ edge (top_state below) (esym e) (e_state e) /\ Linked below
  end.

Lemma linked_skipn k st : Linked st -> Linked (skipn k st).
Proof.
  revert st; induction k as [|k IH]; intros st H; [exact H|].
  destruct st as [|e st]; [exact H|]. simpl. apply IH. apply H.
Qed.

Lemma top_zero_nil st : Linked st -> top_state st = 0 -> st = [].
Proof.
  destruct st as [|e below]; [reflexivity|]. intros (_ & He & _) Hz. destruct (E0 _ _ _ He Hz).
Qed.

(* walking back from an item over the stack: the dot never exceeds the stack height, the exposed
   state holds the item with the dot moved back, and the popped labels spell that part of the rhs *)
Lemma walk_back : forall st p d, Linked st -> core (top_state st) p d ->
  d <= length st /\
  forall k, k <= d ->
    core (top_state (skipn k st)) p (d - k) /\
    map esym (rev (firstn k st)) = firstn k (skipn (d - k) (rhs p)).
Proof.
  induction st as [|e below IH]; intros p d HL Hc.
  - simpl in Hc. pose proof (EX0 _ _ Hc) as Hd. subst d. split; [simpl; lia|].
    intros k Hk. assert (k = 0) by lia. subst k. simpl. split; [exact Hc|reflexivity].
  - destruct d as [|d].
    + split; [lia|]. intros k Hk. assert (k = 0) by lia. subst k. simpl. split; [exact Hc|reflexivity].
    + destruct HL as (Hwf & He & HL). simpl in Hc.
      destruct (EXK _ _ _ He _ _ Hc) as (d0 & Heq & Hn & Hc0); [lia|]. inversion Heq; subst d0.
      destruct (IH p d HL Hc0) as [Hlen Hall].
      split; [simpl; lia|].
      intros k Hk. destruct k as [|k].
      * simpl. split; [exact Hc|reflexivity].
      * destruct (Hall k) as [Hck Hsy]; [lia|].
        simpl skipn. replace (S d - S k) with (d - k) by lia. split; [exact Hck|].
        simpl firstn. simpl rev. rewrite map_app, Hsy. cbn [map].
        apply firstn_skipn_snoc. replace (d - k + k) with d by lia. exact Hn.
Qed.

Lemma syms_match_spec : forall popped l,
  Forall (fun e => wf (e_tree e) (esym e)) popped ->
  map esym popped = l -> syms_match A popped l = true.
Proof.
  induction popped as [|e ps IH]; intros l HF Hm; simpl in Hm; subst l; [reflexivity|].
  inversion HF as [|? ? Hwf HF']; subst. simpl.
  rewrite (wf_sym_of _ _ Hwf).
  assert (Hx : sym_eqb (esym e) (esym e) = true) by (destruct (esym e); simpl; apply Nat.eqb_refl).
  rewrite Hx. simpl. now apply IH.
Qed.

Lemma linked_forall st : Linked st -> Forall (fun e => wf (e_tree e) (esym e)) st.
Proof. induction st as [|e st IH]; intros H; constructor; [apply H | apply IH, H]. Qed.

(** The generated reduce, under the invariant: it never panics; it pops exactly the right-hand
    side; what it pushes keeps the invariant; for the start production the stack is emptied. *)
Inductive reduce_ok (orc : oracle) (p : nat) (st : list entry) : rres * option event -> Prop :=
| ro_fail e kids : orc p kids = Some e -> p <> start_prod A ->
    reduce_ok orc p st (RdDone (RErr (PUser e)), Some (ActFail p e))
| ro_accept kids : p = start_prod A -> wf (Node p kids) (Nt (lhs p)) ->
    kids = map e_tree (rev st) -> length st = length (rhs p) ->
    reduce_ok orc p st (RdDone (ROk (Node p kids)), None)
| ro_cont st' lo hi kids : p <> start_prod A -> orc p kids = None ->
    kids = map e_tree (rev (firstn (length (rhs p)) st)) ->
    st' = (goto_at A (top_state (skipn (length (rhs p)) st)) (lhs p), Node p kids, lo, hi)
            :: skipn (length (rhs p)) st ->
    Linked st' -> length (rhs p) <= length st ->
    reduce_ok orc p st (RdCont st', Some (Act p lo hi)).

Lemma reduce_linked orc st a p la_start :
  Linked st -> la_ok a -> tact (top_state st) a = AReduce p ->
  reduce_ok orc p st (reduce A orc p la_start st).
Proof.
  intros HL Hla Ha. destruct (RJ _ _ _ Hla Ha) as [Hc Hp].
  destruct (walk_back st p (length (rhs p)) HL Hc) as [Hlen Hall].
  destruct (Hall (length (rhs p)) (le_n _)) as [Hc0 Hsy].
  rewrite Nat.sub_diag in Hc0, Hsy. simpl in Hsy. rewrite firstn_all in Hsy.
  unfold reduce. rewrite (nth_error_prods _ Hp).
  replace (length st <? length (rhs p)) with false by (symmetry; apply Nat.ltb_ge; exact Hlen).
  assert (HF : Forall (fun e => wf (e_tree e) (esym e)) (rev (firstn (length (rhs p)) st))).
  { apply Forall_rev, Forall_firstn, linked_forall, HL. }
  rewrite (syms_match_spec _ _ HF Hsy). simpl negb. cbv iota.
  set (popped := rev (firstn (length (rhs p)) st)) in *.
  destruct (match popped with [] => _ | e :: _ => _ end) as [lo hi].
  assert (Hwfn : wf (Node p (map e_tree popped)) (Nt (lhs p))).
  { constructor; [exact Hp|]. rewrite <- Hsy. apply Forall2_map_map. exact HF. }
  destruct (Nat.eqb p (start_prod A)) eqn:Hst.
  - apply Nat.eqb_eq in Hst.
    (* the exposed state holds (start_prod, 0): it must be state 0, so the stack is emptied *)
    assert (Hbelow : skipn (length (rhs p)) st = []).
    { apply top_zero_nil; [apply linked_skipn, HL|].
      destruct (EXC _ _ Hc0) as [[Hz _]|(p' & d' & Hc' & Hn)]; [exact Hz|].
      exfalso. apply (start_fresh p' (core_lt _ _ _ Hc')). rewrite <- Hst.
      eapply nth_error_In; eauto. }
    assert (Hl : length st = length (rhs p)).
    { pose proof (skipn_length (length (rhs p)) st) as Hs. rewrite Hbelow in Hs. simpl in Hs. lia. }
    eapply ro_accept; eauto. unfold popped. rewrite <- Hl, firstn_all. reflexivity.
  - apply Nat.eqb_neq in Hst.
    destruct (orc p (map e_tree popped)) as [e|] eqn:Ho.
    + eapply ro_fail; eauto.
    + eapply ro_cont; eauto.
      simpl. split; [|split; [|apply linked_skipn, HL]].
      * unfold esym. simpl. rewrite (nth_error_prods _ Hp). simpl. exact Hwfn.
      * unfold esym. simpl. rewrite (nth_error_prods _ Hp). simpl.
        destruct (EXC _ _ Hc0) as [[_ Hq]|(p' & d' & Hc' & Hn)]; [congruence|].
        eapply e_goto; eauto.
Qed.

Lemma shift_linked st k i s' :
  Linked st -> tk_idx k = Some i -> i < tn_term A -> tact (top_state st) (Some i) = AShift s' ->
  Linked ((s', Leaf k, tk_lo k, tk_hi k) :: st).
Proof.
  intros HL Hk Hi Ha. simpl. unfold esym. simpl. rewrite Hk. simpl.
  split; [constructor; assumption|]. split; [constructor; assumption|exact HL].
Qed.
End Safety.
