(** C05, exactness ([Shiftable] and the theorem on state vectors are in LR/TerminationRec.v): the
    expected-token list of a reported error is exactly the set of terminals the parser would
    consume next from the configuration in which it reports the error (validated tables, no recovery):
    sound and complete for the automaton. *)
From Coq Require Import List.
From LV Require Import LR.Driver LR.Validator LR.NoPanic LR.ErrorPos LR.TerminationRec.

Section EE.
Variable A : tables.
Variable C : cert.
Hypothesis Hshape : shape A C = true.
Hypothesis Hexact : exact A C = true.
Hypothesis Hnorec : uses_recovery A = false.
Variable orc : oracle.
Variable fuel : nat.
Variable w : list token.

Definition is_unrec (r : result) (exp : list nat) : Prop :=
  match r with RErr (PUnrecTok _ e) | RErr (PUnrecEof _ e) => e = exp | _ => False end.

Theorem expected_list_is_exact r s exp :
  Forall (fun k => match tk_idx k with Some t => t < tn_names A | None => True end) w ->
  drive A orc fuel (map IOk w) = (r, s) -> is_unrec r exp ->
  forall x, x < tn_names A -> (In x exp <-> Shiftable A (Some x) (states_of (stk s))).
Proof.
  intros Hw H Hr x Hx. pose proof (run_J A C Hshape Hexact Hnorec orc fuel w r s Hw H) as HJ.
  assert (Hat : exists u, err_at A C fuel u exp s).
  { (* only the two errors that carry an expected list *)
    destruct r as [|[k e|l e| | |]| |]; [destruct Hr| | |destruct Hr..].
    - destruct Hr. cbn in HJ. destruct HJ as (u & _ & _ & _ & HJ). eauto.
    - destruct Hr. cbn in HJ. eauto. }
  destruct Hat as (u & (HL & _) & _ & HE). unfold expected_tokens in HE.
  exact (expected_exactly_the_shiftable_terminals A C Hshape Hexact fuel _ exp (slinked_of_linked A C _ HL) HE x Hx).
Qed.
End EE.
