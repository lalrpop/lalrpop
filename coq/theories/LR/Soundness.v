(** Soundness of the table-driven parser on validated tables: a successful run returns a derivation
    tree of the start symbol whose leaves are exactly the input tokens, in order; user actions run
    in post-order of that tree.  (Grammars without error recovery; with recovery the returned tree
    is characterised in LR/RecoverySound.v.) *)
From Coq Require Import List Lia.
From LV Require Import LR.Driver LR.Validator LR.Machine LR.Safety LR.ValidatorSpec LR.RecoverySound.
Import ListNotations.

Section TreeInd.
  Variable P : tree -> Prop.
  Hypothesis HL : forall k, P (Leaf k).
  Hypothesis HE : forall e d lo hi, P (ErrLeaf e d lo hi).
  Hypothesis HN : forall p kids, Forall P kids -> P (Node p kids).
  Fixpoint tree_ind' (t : tree) : P t :=
    match t with
    | Leaf k => HL k
    | ErrLeaf e d lo hi => HE e d lo hi
    | Node p kids =>
      HN p kids ((fix go l : Forall P l :=
                    match l with [] => Forall_nil P | k :: r => Forall_cons k (tree_ind' k) (go r) end) kids)
    end.
End TreeInd.

Fixpoint yield (t : tree) : list token :=
  match t with
  | Leaf k => [k]
  | ErrLeaf _ _ _ _ => []
  | Node _ kids => (fix go (l : list tree) : list token :=
                      match l with [] => [] | x :: r => yield x ++ go r end) kids
  end.
(* by conversion: the nested fix of [yield] is the body of [flat_map]; likewise for the other functions on trees *)
Lemma yield_node p kids : yield (Node p kids) = flat_map yield kids.
Proof. reflexivity. Qed.

Fixpoint postorder (t : tree) : list nat :=
  match t with
  | Leaf _ | ErrLeaf _ _ _ _ => []
  | Node p kids => (fix go (l : list tree) : list nat :=
                      match l with [] => [] | x :: r => postorder x ++ go r end) kids ++ [p]
  end.
Lemma postorder_node p kids : postorder (Node p kids) = flat_map postorder kids ++ [p].
Proof. reflexivity. Qed.

(* no error-recovery leaves *)
Fixpoint pure (t : tree) : Prop :=
  match t with
  | Leaf _ => True
  | ErrLeaf _ _ _ _ => False
  | Node _ kids => (fix go (l : list tree) : Prop := match l with [] => True | x :: r => pure x /\ go r end) kids
  end.
Lemma pure_node p kids : pure (Node p kids) <-> Forall pure kids.
Proof.
  simpl. induction kids as [|k r IH]; simpl; split; intros H; auto.
  - destruct H as [H1 H2]. constructor; [exact H1|apply IH; exact H2].
  - inversion H; subst. split; [assumption|apply IH; assumption].
Qed.

Definition toks (l : list item) : list token :=
  flat_map (fun i => match i with IOk k => [k] | IErr _ => [] end) l.
Definition acts (tr : list event) : list nat :=
  flat_map (fun e => match e with Act p _ _ => [p] | ActFail p _ => [p] | _ => [] end) (rev tr).

Section Sound.
Variable A : tables.
Variable C : cert.
Hypothesis Hshape : shape A C = true.
Hypothesis Hexact : exact A C = true.
Hypothesis Hnorec : uses_recovery A = false.
Variable orc : oracle.
Variable fuel : nat.

Notation core := (core C).
Notation Linked := (Linked A core).
Notation wf := (wf A).

Definition item_ok (i : item) : Prop :=
  match i with IOk k => match tk_idx k with Some t => t < tn_names A | None => True end | IErr _ => True end.

Lemma names_term : tn_names A = tn_term A.
Proof.
  pose proof (sh_names A C (shape_spec A C Hshape)) as H. rewrite Hnorec in H. lia.
Qed.

Definition yields (st : list entry) : list token := flat_map (fun e => yield (e_tree e)) (rev st).
Definition posts (st : list entry) : list nat := flat_map (fun e => postorder (e_tree e)) (rev st).
Definition pending (m : mode) : list token := match m with MHave k _ => [k] | _ => [] end.

(* the stack is linked and holds no error node; stack, lookahead and unread input spell the input w; the actions that
   ran are the post-orders of the trees on the stack *)
Definition Inv (w : list token) (m : mode) (s : pst) : Prop :=
  Linked (stk s) /\ Forall (fun e => pure (e_tree e)) (stk s) /\
  yields (stk s) ++ pending m ++ toks (rest s) = w /\
  Forall item_ok (rest s) /\
  acts (trace s) = posts (stk s) /\
  match m with
  | MHave k i => tk_idx k = Some i /\ i < tn_term A
  | MEof => rest s = []
  | MNeed => True
  end.

Lemma yields_cons e st : yields (e :: st) = yields st ++ yield (e_tree e).
Proof. unfold yields. simpl. rewrite flat_map_app. simpl. now rewrite app_nil_r. Qed.
Lemma posts_cons e st : posts (e :: st) = posts st ++ postorder (e_tree e).
Proof. unfold posts. simpl. rewrite flat_map_app. simpl. now rewrite app_nil_r. Qed.

Lemma flat_map_rev_split {X Y} (f : X -> list Y) k (st : list X) :
  flat_map f (rev st) = flat_map f (rev (skipn k st)) ++ flat_map f (rev (firstn k st)).
Proof.
  rewrite <- (firstn_skipn k st) at 1. rewrite rev_app_distr, flat_map_app. reflexivity.
Qed.

Lemma flat_map_map {X Y Z} (f : X -> Y) (g : Y -> list Z) l :
  flat_map g (map f l) = flat_map (fun x => g (f x)) l.
Proof. induction l; simpl; congruence. Qed.
Lemma yields_split k st :
  yields st = yields (skipn k st) ++ flat_map yield (map e_tree (rev (firstn k st))).
Proof. unfold yields. rewrite (flat_map_rev_split _ k st), flat_map_map. reflexivity. Qed.
Lemma posts_split k st :
  posts st = posts (skipn k st) ++ flat_map postorder (map e_tree (rev (firstn k st))).
Proof. unfold posts. rewrite (flat_map_rev_split _ k st), flat_map_map. reflexivity. Qed.

Lemma acts_cons ev tr : acts (ev :: tr) =
  acts tr ++ match ev with Act p _ _ => [p] | ActFail p _ => [p] | _ => [] end.
Proof. unfold acts. simpl. rewrite flat_map_app. simpl. now rewrite app_nil_r. Qed.
Lemma acts_log s ev : acts (trace (log s ev)) =
  acts (trace s) ++ match ev with Act p _ _ => [p] | ActFail p _ => [p] | _ => [] end.
Proof. apply acts_cons. Qed.

Definition final_ok (w : list token) (r : result) (s : pst) : Prop :=
  match r with
  | ROk v => wf v (Nt (start_nt A)) /\ pure v /\ yield v = w /\
             acts (trace s) ++ [start_prod A] = postorder v
  | _ => True
  end.

Lemma Inv_L w m s : Inv w m s -> L A C m s.
Proof.
  intros (HL & _ & _ & Hok & _ & Hm). split; [exact HL|]. split; [|destruct m; [exact I|exact Hm|exact I]].
  eapply Forall_impl; [|exact Hok]. intros [k|e]; [|exact (fun H => H)]. cbn. unfold tok_ok. rewrite names_term. exact (fun H => H).
Qed.

Lemma node_stack p k st s' lo hi : Forall (fun e => pure (e_tree e)) st ->
  let st' := (s', Node p (map e_tree (rev (firstn k st))), lo, hi) :: skipn k st in
  Forall (fun e => pure (e_tree e)) st' /\ yields st' = yields st /\ posts st' = posts st ++ [p].
Proof.
  intros Hpu. cbv zeta. split; [|split].
  - constructor; [|apply Forall_skipn; exact Hpu]. cbn [e_tree]. apply pure_node, Forall_map, Forall_rev, Forall_firstn. exact Hpu.
  - rewrite yields_cons. cbn [e_tree]. rewrite yield_node, (yields_split k st). reflexivity.
  - rewrite posts_cons. cbn [e_tree]. rewrite postorder_node, (posts_split k st), app_assoc. reflexivity.
Qed.

Lemma unrec_final_ok w s tok s' : final_ok w (unrec_error A fuel s tok) s'.
Proof. pose proof (unrec_not_ok A fuel s tok) as H. destruct (unrec_error A fuel s tok); [contradiction|exact I..]. Qed.

Theorem Inv_invariant w : invariant A orc fuel (fun ph m s => ph = Parse /\ Inv w m s) (final_ok w).
Proof.
  intros ph m s o [-> HI] H.
  pose proof (L_invariant A C Hshape Hexact orc fuel
                Parse m s o (conj (Inv_L w m s HI) I) H) as HL'.
  pose proof (L_la_ok A C m s (Inv_L w m s HI)) as Hla.
  remember Parse as ph eqn:Eph. destruct HI as (HL & Hpu & Hy & Hok & Hacts & Hm).
  destruct H; try discriminate Eph; try exact I;
    try (rewrite Er in Hok, Hy; apply Forall_cons_iff in Hok as [Hk Hok']; cbn [toks flat_map app pending] in Hy).
  - (* pull_eof *) split; [reflexivity|].
    refine (conj HL (conj Hpu (conj _ (conj _ (conj _ Er))))); cbn [stk rest log pending app trace]; rewrite ?Er.
    + rewrite Er in Hy. exact Hy.
    + constructor.
    + rewrite acts_cons, app_nil_r. exact Hacts.
  - (* pull_tok *) split; [reflexivity|]. refine (conj HL (conj Hpu (conj Hy (conj Hok' (conj _ (conj Ei _)))))); cbn [pulled trace].
    + rewrite acts_cons, app_nil_r. exact Hacts.
    + cbn in Hk. rewrite Ei in Hk. rewrite <- names_term. exact Hk.
  - (* pull_unknown *) apply unrec_final_ok.
  - (* shift *) destruct HL' as [(HL' & _) _]. split; [reflexivity|].
    refine (conj HL' (conj _ (conj _ (conj Hok (conj _ I))))); cbn [shifted stk rest set_stk log pending app trace].
    + constructor; [exact I|exact Hpu].
    + rewrite yields_cons. cbn [e_tree yield pending app] in *. rewrite <- app_assoc. exact Hy.
    + rewrite acts_cons, posts_cons. cbn [e_tree postorder]. rewrite !app_nil_r. exact Hacts.
  - (* reduce *) subst ph.
    pose proof (reduce_facts A C Hshape Hexact orc (stk s) _ p (mlo m) HL Hla Et) as Hred. rewrite Ered in Hred.
    inversion Hred as [e kids Ho Hne|kids Hst Hwf Hkids Hlen|st' lo hi kids Hne Ho Hkids Hst' HLs Hlen]; subst x ev.
    + destruct m; exact I.
    + destruct m as [|k i|]; [congruence|exact I|]. cbn [answer final_ok logo]. rewrite Hm in Hy. cbn [pending toks flat_map app] in Hy.
      rewrite app_nil_r in Hy. subst kids. split; [subst p; exact Hwf|]. split; [|split].
      * apply pure_node, Forall_map, Forall_rev. exact Hpu.
      * rewrite yield_node, <- Hy. unfold yields. apply flat_map_map.
      * rewrite postorder_node, Hacts. subst p. unfold posts. f_equal. symmetry. apply flat_map_map.
    + split; [reflexivity|]. subst kids st'.
      destruct (node_stack p (length (rhs A p)) (stk s) (goto_at A (top_state (skipn (length (rhs A p)) (stk s))) (lhs A p)) lo hi Hpu)
        as (Hpu' & Hy' & Hp').
      refine (conj HLs (conj Hpu' (conj _ (conj Hok (conj _ Hm))))); cbn [stk rest trace set_stk logo log].
      * rewrite Hy'. exact Hy.
      * rewrite acts_cons, Hp', Hacts. reflexivity.
  - (* error *) apply unrec_final_ok.
  - (* recover *) congruence.
Qed.

Lemma toks_map_ok w : toks (map IOk w) = w.
Proof. induction w; simpl; congruence. Qed.

(** Soundness: an accepted input is derivable from the start symbol, the tree returned is its
    derivation (its leaves are the input tokens in order), and the user actions that ran are the
    tree's productions in post-order (each node exactly once; the internal start production last). *)
Theorem sound w v s :
  Forall (fun k => match tk_idx k with Some t => t < tn_names A | None => True end) w ->
  drive A orc fuel (map IOk w) = (ROk v, s) ->
  wf v (Nt (start_nt A)) /\ pure v /\ yield v = w /\ acts (trace s) ++ [start_prod A] = postorder v.
Proof.
  intros Hw H. refine (run_invariant A orc fuel _ _ (Inv_invariant w) _ _ _ _ _ _ H _ _); try discriminate.
  split; [reflexivity|]. repeat split; cbn; auto; [rewrite toks_map_ok; reflexivity|apply Forall_map; exact Hw].
Qed.
End Sound.
