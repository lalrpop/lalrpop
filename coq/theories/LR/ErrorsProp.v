(** C17: errors from the token stream and from fallible actions end the parse at once and are
    returned verbatim.  Holds for ANY tables (no validity hypothesis), any oracle, any fuel. *)
From Coq Require Import List Arith Lia.
From LV Require Import LR.Driver LR.Machine.

Section Errors.
Variable A : tables.
Variable orc : oracle.
Variable fuel : nat.
Variable input : list item.

Definition all_ok (n : nat) : Prop := forall j, j < n -> exists k, nth_error input j = Some (IOk k).
Definition no_fail (tr : list event) : Prop := forall p e, ~ In (ActFail p e) tr.

(* nothing has gone wrong so far *)
Definition good (s : pst) : Prop :=
  rest s = skipn (npulled s) input /\ all_ok (npulled s) /\ no_fail (trace s).

(* the run has just ended because of a stream error or a failing action *)
Definition halted (s : pst) (r : result) : Prop :=
  (exists k e tr, nth_error input k = Some (IErr e) /\ npulled s = S k /\ all_ok k /\
                  r = RErr e /\ trace s = Pull k :: tr /\ no_fail tr)
  \/ (exists p e tr, trace s = ActFail p e :: tr /\ r = RErr (PUser e) /\ no_fail tr /\
                     rest s = skipn (npulled s) input /\ all_ok (npulled s)).

Lemma skipn_cons_nth {X} (l : list X) n x r : skipn n l = x :: r -> nth_error l n = Some x /\ skipn (S n) l = r.
Proof. apply skipn_cons_iff. Qed.

Lemma no_fail_cons ev tr : no_fail tr -> (forall p e, ev <> ActFail p e) -> no_fail (ev :: tr).
Proof. intros H Hne p e [Heq|Hin]; [eapply Hne; eauto | eapply H; eauto]. Qed.

Lemma good_log s ev : good s -> (forall p e, ev <> ActFail p e) -> good (log s ev).
Proof. intros (H1 & H2 & H3) Hne. repeat split; simpl; auto using no_fail_cons. Qed.

Lemma good_set_stk s k : good s -> good (set_stk s k).
Proof. intros (H1 & H2 & H3). repeat split; simpl; auto. Qed.

Lemma all_ok_S n k : all_ok n -> nth_error input n = Some (IOk k) -> all_ok (S n).
Proof. intros H Hn j Hj. destruct (Nat.eq_dec j n) as [->|]; [eauto | apply H; lia]. Qed.

Lemma good_pulled s k r : good s -> rest s = IOk k :: r -> good (pulled s r (tk_hi k)).
Proof.
  intros (Hr & Hok & Hnf) Hi. rewrite Hi in Hr. symmetry in Hr. apply skipn_cons_nth in Hr as [Hn Hs].
  repeat split; cbn; auto; [eapply all_ok_S; eauto|apply no_fail_cons; [auto|discriminate]].
Qed.

Lemma halted_fail s p e : good s -> halted (log s (ActFail p e)) (RErr (PUser e)).
Proof. intros (H1 & H2 & H3). right. exists p, e, (trace s). simpl. repeat split; auto. Qed.

Theorem good_invariant : invariant A orc fuel (fun _ _ s => good s) (fun r s => good s \/ halted s r).
Proof.
  intros ph m s o G H. destruct H; try (left; exact G).
  - (* pull_eof *) apply good_log; [exact G|discriminate].
  - (* pull_err *) right. left. destruct G as (Hg & Hok & Hnf). rewrite Er in Hg. symmetry in Hg. apply skipn_cons_nth in Hg as [Hn Hs].
    exists (npulled s), e, (trace s). cbn. repeat split; auto.
  - (* pull_tok *) exact (good_pulled s k r G Er).
  - (* pull_unknown *) left. exact (good_pulled s k r G Er).
  - (* shift *) apply good_log; [apply good_set_stk; exact G|discriminate].
  - (* reduce *) pose proof (reduce_cases A orc p (mlo m) (stk s)) as V. rewrite Ered in V.
    inversion V; subst; [left; exact G..|right; destruct ph, m; apply halted_fail; exact G|].
    apply good_set_stk, good_log; [exact G|discriminate].
  - (* recover *) exact G.
  - (* break *) exact G.
  - (* drop *) apply good_log; [exact G|discriminate].
  - (* resume *) apply good_set_stk; exact G.
Qed.

Lemma run_spec n m s r s' : good s -> run A orc fuel n m s = (r, s') -> good s' \/ halted s' r.
Proof.
  intros G H. destruct (run_state A orc fuel _ _ good_invariant n m s r s' G H) as [HQ|(_ & _ & G')]; [exact HQ|left; exact G'].
Qed.

Lemma good_init : good (init input).
Proof. repeat split; simpl; auto. - intros j Hj; lia. - intros p e []. Qed.

(** A stream error that the run reaches is returned verbatim, is the last item pulled, and
    nothing (no action, no shift, no drop) happens after it. *)
Theorem stream_error_verbatim r s k e :
  drive A orc fuel input = (r, s) ->
  nth_error input k = Some (IErr e) -> k < npulled s ->
  r = RErr e /\ npulled s = S k /\ exists tr, trace s = Pull k :: tr.
Proof.
  intros H Hk Hlt. apply run_spec in H; [|apply good_init].
  destruct H as [(_ & Hok & _)|[(k' & e' & tr & Hn & Hp & Hok & -> & Htr & _)|(p & e' & tr & Htr & -> & _ & _ & Hok)]].
  - destruct (Hok k Hlt) as [t Ht]. congruence.
  - assert (k = k').
    { destruct (Nat.lt_ge_cases k k') as [Hl|Hg]; [|lia].
      destruct (Hok k Hl) as [t Ht]. congruence. }
    subst k'. rewrite Hn in Hk. inversion Hk; subst. eauto.
  - destruct (Hok k Hlt) as [t Ht]. congruence.
Qed.

(** A failing action ends the run with exactly its error, and is the last event. *)
Theorem action_error_verbatim r s p e :
  drive A orc fuel input = (r, s) -> In (ActFail p e) (trace s) ->
  r = RErr (PUser e) /\ exists tr, trace s = ActFail p e :: tr /\ no_fail tr.
Proof.
  intros H Hin. apply run_spec in H; [|apply good_init].
  destruct H as [(_ & _ & Hnf)|[(k' & e' & tr & _ & _ & _ & _ & Htr & Hnf)|(p' & e' & tr & Htr & -> & Hnf & _)]].
  - exfalso; eapply Hnf; eauto.
  - rewrite Htr in Hin. destruct Hin as [Hd|Hin]; [discriminate|]. exfalso; eapply Hnf; eauto.
  - rewrite Htr in Hin. destruct Hin as [Hd|Hin].
    + inversion Hd; subst. eauto.
    + exfalso; eapply Hnf; eauto.
Qed.

(** Only items before the first stream error are ever read. *)
Theorem never_reads_past_error r s k e :
  drive A orc fuel input = (r, s) -> nth_error input k = Some (IErr e) -> npulled s <= S k.
Proof.
  intros H Hk. destruct (Nat.le_gt_cases (npulled s) k) as [|Hlt]; [lia|].
  destruct (stream_error_verbatim _ _ _ _ H Hk Hlt) as (_ & -> & _). lia.
Qed.
End Errors.

(* a fallible action's error comes from the oracle on the production's own children: the event is
   logged exactly when [orc] fails *)
Lemma reduce_fail_iff A orc p la st rr e :
  reduce A orc p la st = (rr, Some (ActFail p e)) ->
  exists kids, orc p kids = Some e.
Proof. intros H. pose proof (reduce_cases A orc p la st) as V. rewrite H in V. inversion V; eauto. Qed.
