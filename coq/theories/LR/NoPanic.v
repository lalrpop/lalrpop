(** Validated tables under a linked stack, with or without error recovery: every entry the driver
    looks up exists and its targets are states; the state vector of a linked stack ([SLinked]), on
    which one unfolding of the [accepts] simulation is read off the decoded action ([accepts_S]) and
    is what a real reduce does to the stack ([reduce_spop]).  Hence the simulation, the
    expected-token list and the error report never reach a panic site.  For the run itself:
    LR/NoPanicRec.v. *)
From Coq Require Import List BinInt Bool Arith Lia.
From LV Require Import LR.Driver LR.Validator LR.Machine LR.Safety LR.ValidatorSpec.
Import ListNotations.

Section NoPanic.
Variable A : tables.
Variable C : cert.
Hypothesis Hshape : shape A C = true.
Hypothesis Hexact : exact A C = true.

Notation core := (core C).
Notation edge := (edge A core).
Notation Linked := (Linked A core).

Lemma nstates_pos : 0 < n_states A.
Proof. exact (sh_states A C (shape_spec A C Hshape)). Qed.

Lemma act_some s i : s < n_states A -> i < tn_term A -> exists a, act_at A s i = Some a.
Proof.
  intros Hs Hi. unfold act_at.
  destruct (nth_error (action A) (s * tn_term A + i)) as [a|] eqn:Hn; [eauto|].
  apply nth_error_None in Hn.
  rewrite (sh_action A C (shape_spec A C Hshape)) in Hn. nia.
Qed.
Lemma eof_some s : s < n_states A -> exists a, eof_at A s = Some a.
Proof.
  intros Hs. unfold eof_at. destruct (nth_error (eof_action A) s) eqn:Hn; [eauto|].
  apply nth_error_None in Hn. unfold n_states in Hs. lia.
Qed.

Lemma act_la_some s a : s < n_states A -> la_ok A a ->
  exists z, match a with None => eof_at A s | Some t => act_at A s t end = Some z.
Proof. destruct a as [t|]; intros Hs Ha; [apply act_some; auto|apply eof_some; auto]. Qed.

Lemma act_ok_of s a : s < n_states A -> la_ok A a -> act_ok A s a = true.
Proof.
  intros Hs Ha. exact (sh_act A C (shape_spec A C Hshape) s a Hs (all_la_in A a Ha)).
Qed.

Lemma goto_lt s B : goto_at A s B < n_states A.
Proof.
  unfold goto_at. destruct (nth_in_or_default B (goto_tbl A) []) as [Hin|Hd].
  - destruct (nth_in_or_default s (nth B (goto_tbl A) []) 0) as [Hin2|Hd2].
    + exact (proj2 (sh_goto_rows A C (shape_spec A C Hshape) _ Hin) _ Hin2).
    + rewrite Hd2. apply nstates_pos.
  - rewrite Hd. destruct s; simpl; apply nstates_pos.
Qed.

Lemma edge_target_lt s X s' : edge s X s' -> s' < n_states A.
Proof.
  intros He. destruct He as [s x s' Hx Ha|s B p d Hc Hn].
  - assert (Hs : s < n_states A).
    { eapply (tact_state A C Hshape s (Some x) (AShift s')); [exact Ha|discriminate]. }
    pose proof (act_ok_of s (Some x) Hs Hx) as Hok. unfold act_ok in Hok. rewrite Ha in Hok.
    apply andb_true_iff in Hok as [Hok _]. apply Nat.ltb_lt in Hok. exact Hok.
  - apply goto_lt.
Qed.

Lemma linked_top_lt st : Linked st -> top_state st < n_states A.
Proof.
  destruct st as [|e below]; simpl; [intros _; apply nstates_pos|].
  intros (_ & He & _). eapply edge_target_lt; eauto.
Qed.

Lemma tact_ok st a : Linked st -> la_ok A a ->
  match tact A (top_state st) a with ABad => False | AShift _ => a <> None | _ => True end.
Proof.
  intros HL Ha. pose proof (act_ok_of _ a (linked_top_lt _ HL) Ha) as H. unfold act_ok in H.
  destruct (tact A (top_state st) a); [destruct a; discriminate|exact I|exact I|discriminate].
Qed.

(* a state vector is never empty and ends in the start state 0; consecutive states are joined by an edge *)
Fixpoint SLinked (l : list nat) : Prop :=
  match l with
  | [] => False
  | s' :: r => match r with
               | [] => s' = 0
               | s :: _ => (exists X, edge s X s') /\ SLinked r
               end
  end.

Lemma slinked_of_linked st : Linked st -> SLinked (states_of st).
Proof.
  induction st as [|e below IH]; simpl; [reflexivity|].
  intros (_ & He & HL). unfold states_of in *. simpl.
  destruct below as [|e' below']; simpl in *.
  - split; [eauto|reflexivity].
  - split; [eauto|]. apply IH. exact HL.
Qed.

Lemma slinked_hd_lt l : SLinked l -> hd 0 l < n_states A.
Proof.
  destruct l as [|s' r]; simpl; [intros []|]. destruct r as [|s r'].
  - intros ->. apply nstates_pos.
  - intros [(X & He) _]. eapply edge_target_lt; eauto.
Qed.

Lemma slinked_skipn k l : SLinked l -> k < length l -> SLinked (skipn k l).
Proof.
  revert l; induction k as [|k IH]; intros l H Hk; [exact H|].
  destruct l as [|s' r]; [simpl in Hk; lia|]. simpl. apply IH; [|simpl in Hk; lia].
  simpl in H. destruct r as [|s r']; [simpl in Hk; lia|]. apply H.
Qed.

(* walking back from an item over the state vector, as [Safety.walk_back] does over the stack: the dot
   is below the height, and the state exposed by popping as many entries holds the item at dot 0 *)
Lemma walk_back_s p : forall d l, SLinked l -> core (hd 0 l) p d -> d < length l /\ core (hd 0 (skipn d l)) p 0.
Proof.
  induction d as [|d IH]; intros [|s' r] HL Hc.
  - destruct HL.
  - split; [apply Nat.lt_0_succ|exact Hc].
  - destruct HL.
  - cbn [hd] in Hc. destruct r as [|s r']; cbn [SLinked] in HL.
    + subst s'. discriminate (EX0 A C Hshape Hexact _ _ Hc).
    + destruct HL as [(X & He) HL].
      destruct (EXK A C Hshape Hexact _ _ _ He _ _ Hc (Nat.lt_0_succ d)) as (d0 & [= <-] & _ & Hc0).
      destruct (IH (s :: r') HL Hc0) as [Hlen Hc']. split; [apply le_n_S; exact Hlen|exact Hc'].
Qed.

Definition spop (p : nat) (l : list nat) : list nat :=
  goto_at A (hd 0 (skipn (length (rhs A p)) l)) (lhs A p) :: skipn (length (rhs A p)) l.

Lemma spop_slinked l a p : SLinked l -> la_ok A a -> tact A (hd 0 l) a = AReduce p -> p <> start_prod A ->
  length (rhs A p) < length l /\ SLinked (spop p l).
Proof.
  intros HL Ha Ht Hne. destruct (RJ A C Hshape Hexact _ _ _ Ha Ht) as [Hc Hp].
  destruct (walk_back_s p _ l HL Hc) as [Hlen Hall]. split; [exact Hlen|].
  pose proof (slinked_skipn _ _ HL Hlen) as HL'. unfold spop.
  destruct (skipn (length (rhs A p)) l) as [|b r'] eqn:Es; [destruct HL'|].
  cbn [hd] in *. split; [|exact HL'].
  destruct (EXC A C Hshape Hexact _ _ Hall) as [[_ Hq]|(p' & d' & Hc2 & Hn)]; [congruence|].
  exists (Nt (lhs A p)). eapply e_goto; eauto.
Qed.

(** one unfolding of [accepts] on a linked state vector, read off the decoded action: on validated
    tables this is the only place where the simulation tables sim_pop/sim_nt are looked at *)
Lemma accepts_S f l a : SLinked l -> la_ok A a ->
  match tact A (hd 0 l) a with
  | AShift _ => accepts A (S f) l a = ATrue
  | AErr => accepts A (S f) l a = AFalse
  | AReduce p =>
      if p =? start_prod A then accepts A (S f) l a = ATrue
      else length (rhs A p) < length l /\ SLinked (spop p l) /\ accepts A (S f) l a = accepts A f (spop p l) a
  | ABad => False
  end.
Proof.
  intros HL Ha. pose proof (slinked_hd_lt l HL) as Htop. pose proof (spop_slinked l a) as Hpop.
  destruct l as [|top r] eqn:El; [destruct HL|]. rewrite <- El in HL. cbn [hd] in *.
  destruct (act_la_some top a Htop Ha) as [z Hz]. unfold tact in *. cbn [accepts]. rewrite Hz in *.
  pose proof (decode_some z) as Hd.
  destruct (decode (Some z)) as [t|p| |] eqn:Ed.
  - destruct Hd as (_ & -> & Hpos). destruct (Z.eqb_spec z 0); [lia|reflexivity].
  - destruct Hd as (_ & -> & Hneg). destruct (Z.eqb_spec z 0); [lia|].
    assert (Hp : p < n_prods A) by (apply (RJ A C Hshape Hexact top a p Ha); unfold tact; rewrite Hz; exact Ed).
    destruct (sim_spec A C Hshape p Hp) as (-> & k & -> & Hk).
    destruct (Nat.eqb_spec p (start_prod A)) as [_|Hne]; [reflexivity|]. rewrite (Hk Hne).
    rewrite <- El in *. destruct (Hpop p HL Ha eq_refl Hne) as [Hlen HL'].
    destruct (Nat.leb_spec (length l) (length (rhs A p))); [lia|]. auto.
  - destruct Hd as (_ & _ & ->). reflexivity.
  - exact Hd.
Qed.

Lemma accepts_no_panic : forall fuel l a, SLinked l -> la_ok A a -> accepts A fuel l a <> APanic.
Proof.
  induction fuel as [|fuel IH]; intros l a HL Ha; [discriminate|].
  pose proof (accepts_S fuel l a HL Ha) as H.
  destruct (tact A (hd 0 l) a) as [t|p| |]; [rewrite H; discriminate| |rewrite H; discriminate|destruct H].
  destruct (p =? start_prod A); [rewrite H; discriminate|].
  destruct H as (_ & HL' & ->). exact (IH _ a HL' Ha).
Qed.

Lemma reduce_spop orc st a p la_start st' ev : Linked st -> la_ok A a -> tact A (top_state st) a = AReduce p ->
  reduce A orc p la_start st = (RdCont st', ev) ->
  p <> start_prod A /\ length (rhs A p) <= length st /\ states_of st' = spop p (states_of st).
Proof.
  intros HL Ha Ht E. pose proof (reduce_facts A C Hshape Hexact orc st a p la_start HL Ha Ht) as Hred. rewrite E in Hred.
  inversion Hred as [| |st2 lo hi kids Hne Ho Hkids Hst' HL' Hlen Heq]; subst.
  unfold spop. rewrite (skipn_states_of _ _ Hlen), hd_states_of. auto.
Qed.

Lemma expected_go_no_panic fuel l : SLinked l -> forall n i, i + n <= tn_term A ->
  expected_go A fuel l i n <> EPanic.
Proof.
  intros HL n i Hi E. pose proof (expected_go_spec A fuel l n i) as H. rewrite E in H. destruct H as (x & Hx & Ha).
  apply (accepts_no_panic fuel l (Some x) HL); [cbn; lia|exact Ha].
Qed.

Lemma names_le : tn_names A <= tn_term A.
Proof. rewrite (sh_names A C (shape_spec A C Hshape)). lia. Qed.

Lemma unrec_no_panic fuel s tok : Linked (stk s) -> unrec_error A fuel s tok <> RPanic.
Proof.
  intros HL. unfold unrec_error, expected_tokens.
  pose proof (expected_go_no_panic fuel _ (slinked_of_linked _ HL) (tn_names A) 0) as H.
  destruct (expected_go A fuel (states_of (stk s)) 0 (tn_names A)) as [exp| |].
  - destruct tok; discriminate.
  - exfalso. apply H; [pose proof names_le; lia|reflexivity].
  - discriminate.
Qed.

End NoPanic.
