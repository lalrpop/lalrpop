(** Whole-tree span rule of the table-driven driver (C06), for ANY tables without error recovery:
    the spans the parser computes for all nodes of the returned tree -- observable as the Act events,
    one per node in post-order -- are those of the documented rule, stated once for the whole tree:
      - a token has the span the lexer supplied;
      - a node with children spans from the start of its first child to the end of its last child;
      - a node without children gets the zero-width span at the start of the next input token, or, at
        the end of the input, at the end of the symbol to its left (the default location 0 if none). *)
From Coq Require Import List ZArith Bool Lia.
From LV Require Import LR.Driver LR.Validator LR.Machine LR.Soundness.
Import ListNotations.

(** the rule per step, read off the model: what a reduce and a shift give the new stack entry *)
Lemma reduce_span_rule A orc p la st s' t lo hi below ev :
  reduce A orc p la st = (RdCont ((s', t, lo, hi) :: below), ev) ->
  exists k, nth_error (prods A) p = Some k /\
  let popped := rev (firstn (length (snd k)) st) in
  match popped with
  | [] => lo = hi /\ lo = match la with
                          | Some l => l
                          | None => match st with e :: _ => e_hi e | [] => 0%Z end
                          end
  | e :: _ => lo = e_lo e /\ hi = e_hi (last popped e)
  end /\ ev = Some (Act p lo hi).
Proof.
  intros H. pose proof (reduce_cases A orc p la st) as V. rewrite H in V.
  inversion V as [| | |nt rhs lo' hi' Ep _ _ _ Esp]; subst.
  exists (nt, rhs). split; [exact Ep|]. cbn [snd]. unfold node_span in Esp.
  destruct (rev (firstn (length rhs) st)); injection Esp as <- <-; auto.
Qed.

Lemma shift_span_rule A orc fuel k i s m' s' :
  step A orc fuel (MHave k i) s = Cont m' s' -> m' = MNeed ->
  exists target, stk s' = (target, Leaf k, tk_lo k, tk_hi k) :: stk s.
Proof.
  rewrite step_have. destruct (tact A (top_state (stk s)) (Some i)) as [t|p| |].
  - intros [= <- <-] _. cbn. eauto.
  - destruct (reduce A orc p _ (stk s)) as [[|r|st'] ev]; cbn; [discriminate|discriminate|].
    intros [= <- _]; discriminate.
  - destruct (error_recovery A orc fuel _ s) as [[k' i'| |r] s1]; cbn.
    + intros [= <- _]; discriminate.
    + intros [= <- _]; discriminate.
    + discriminate.
  - discriminate.
Qed.

Definition ev3 := (nat * Z * Z)%type.

(* start of the first token of a sequence of trees, else of what follows *)
Definition first_lo (ts : list tree) (a : option Z) : option Z :=
  match flat_map yield ts with k :: _ => Some (tk_lo k) | [] => a end.

Lemma first_lo_app l1 l2 a : first_lo (l1 ++ l2) a = first_lo l1 (first_lo l2 a).
Proof. unfold first_lo. rewrite flat_map_app. destruct (flat_map yield l1); reflexivity. Qed.
Lemma first_lo_nil a : first_lo [] a = a.
Proof. reflexivity. Qed.
Lemma first_lo_node p kids a : first_lo [Node p kids] a = first_lo kids a.
Proof. unfold first_lo. cbn [flat_map]. rewrite app_nil_r, yield_node. reflexivity. Qed.

(** the rule: [Sp t b a lo hi evs] -- with [b] the end of the symbol to the left of t (0 if none) and
    [a] the start of the first input token after t (None at the end of the input), the subtree t has
    span (lo, hi) and its nodes, in post-order, have the spans listed in evs *)
Inductive Sp : tree -> Z -> option Z -> Z -> Z -> list ev3 -> Prop :=
| Sp_leaf k b a : Sp (Leaf k) b a (tk_lo k) (tk_hi k) []
| Sp_empty p b a : let pos := match a with Some l => l | None => b end in
    Sp (Node p []) b a pos pos [(p, pos, pos)]
| Sp_node p k ks b a lo hi evs : SpL (k :: ks) b a lo hi evs ->
    Sp (Node p (k :: ks)) b a lo hi (evs ++ [(p, lo, hi)])
with SpL : list tree -> Z -> option Z -> Z -> Z -> list ev3 -> Prop :=
| SpL_one t b a lo hi ev : Sp t b a lo hi ev -> SpL [t] b a lo hi ev
| SpL_cons t r b a lo hi lo2 hi2 ev evs : r <> [] ->
    Sp t b (first_lo r a) lo hi ev -> SpL r hi a lo2 hi2 evs -> SpL (t :: r) b a lo hi2 (ev ++ evs).

Lemma SpL_snoc : forall l b a' lo hi evs, SpL l b a' lo hi evs ->
  forall t a lo' hi' ev, a' = first_lo [t] a -> Sp t hi a lo' hi' ev -> SpL (l ++ [t]) b a lo hi' (evs ++ ev).
Proof.
  induction 1 as [t0 b a' lo hi ev0 H0|t0 r b a' lo hi lo2 hi2 ev0 evs0 Hr H0 Hrest IH]; intros t a lo' hi' ev Ha Ht.
  - cbn [app]. apply (SpL_cons t0 [t] b a lo hi lo' hi' ev0 ev); [discriminate| |apply SpL_one; exact Ht]. rewrite <- Ha. exact H0.
  - cbn [app]. rewrite <- app_assoc. apply (SpL_cons t0 (r ++ [t]) b a lo hi lo2 hi' ev0 (evs0 ++ ev)).
    + destruct r; [congruence|discriminate].
    + rewrite first_lo_app, <- Ha. exact H0.
    + apply (IH t a lo' hi' ev Ha Ht).
Qed.

(* SpL holds of non-empty lists only, so the node rule needs no cons in its statement *)
Lemma Sp_kids p kids b a lo hi evs : SpL kids b a lo hi evs -> Sp (Node p kids) b a lo hi (evs ++ [(p, lo, hi)]).
Proof. intros H. destruct H; apply Sp_node; [apply SpL_one|eapply SpL_cons]; eassumption. Qed.

Definition top_hi (st : list entry) : Z := match st with e :: _ => e_hi e | [] => 0%Z end.

(* the stack, top first: every entry carries the span the rule gives its tree in its context *)
Inductive StackOK : list entry -> option Z -> list ev3 -> Prop :=
| SO_nil a : StackOK [] a []
| SO_cons e below a ev evs : Sp (e_tree e) (top_hi below) a (e_lo e) (e_hi e) ev ->
    StackOK below (first_lo [e_tree e] a) evs -> StackOK (e :: below) a (evs ++ ev).

Lemma last_rev {X} (l : list X) d : last (rev l) d = hd d l.
Proof. destruct l as [|x l]; [reflexivity|]. cbn [rev]. apply last_last. Qed.
Lemma hd_rev {X} (l : list X) d : hd d (rev l) = last l d.
Proof. rewrite <- (last_rev (rev l) d), rev_involutive. reflexivity. Qed.

Lemma last_in {X} (l : list X) d : l <> [] -> In (last l d) l.
Proof. intros H. rewrite (app_removelast_last d H) at 2. apply in_elt. Qed.
Lemma last_dflt {X} (l : list X) a b : l <> [] -> last l a = last l b.
Proof. intros H. rewrite (app_removelast_last a H), !last_last. reflexivity. Qed.

Lemma match_rev {X Y} (l : list X) (f : X -> Y) (y : Y) :
  match rev l with e :: _ => f e | [] => y end = match l with e :: _ => f (last l e) | [] => y end.
Proof.
  destruct l as [|x l']; [reflexivity|]. rewrite <- (hd_rev (x :: l') x). cbn [rev]. destruct (rev l'); reflexivity.
Qed.

Lemma firstn_nil_skipn {X} n (l : list X) : firstn n l = [] -> skipn n l = l.
Proof. destruct n; [reflexivity|]. destruct l; [reflexivity|discriminate]. Qed.

Lemma pops_all_skipn {X Y} (f : X -> Y) n (st : list X) : length (map f (rev (firstn n st))) = length st -> skipn n st = [].
Proof. rewrite map_length, rev_length, firstn_length. intros H. apply skipn_all2. lia. Qed.

(* the span of a new node, read off the popped entries as they lie on the stack, top first *)
Lemma node_span_rev la st ents : node_span la st (rev ents) =
  match ents with
  | [] => let l := match la with Some l => l | None => top_hi st end in (l, l)
  | e :: _ => (e_lo (last ents e), e_hi e)
  end.
Proof.
  unfold node_span. rewrite (match_rev ents (fun x => (e_lo x, e_hi (last (rev ents) x)))).
  destruct ents as [|e ents']; [reflexivity|]. rewrite last_rev. reflexivity.
Qed.

(* the topmost entries of the stack are the children of a node: their recorded spans chain up *)
Lemma stack_split : forall ents below a evs d, ents <> [] -> StackOK (ents ++ below) a evs ->
  exists evs_b evs_k, evs = evs_b ++ evs_k /\
    StackOK below (first_lo (map e_tree (rev ents)) a) evs_b /\
    SpL (map e_tree (rev ents)) (top_hi below) a (e_lo (last ents d)) (e_hi (hd d ents)) evs_k.
Proof.
  induction ents as [|e ents IH]; intros below a evs d Hne H; [congruence|].
  cbn [app] in H. inversion H as [|e0 below0 a0 ev evs' Hsp Hrest]; subst.
  destruct ents as [|e2 r].
  - cbn [app] in *. exists evs', ev. split; [reflexivity|]. cbn [rev app map]. split; [exact Hrest|].
    cbn [last hd]. apply SpL_one. exact Hsp.
  - destruct (IH below _ _ d ltac:(discriminate) Hrest) as (evs_b & evs_k & -> & Hb & Hk).
    exists evs_b, (evs_k ++ ev). split; [rewrite app_assoc; reflexivity|].
    change (rev (e :: e2 :: r)) with (rev (e2 :: r) ++ [e]). rewrite map_app. cbn [map].
    split.
    + rewrite first_lo_app. exact Hb.
    + change (last (e :: e2 :: r) d) with (last (e2 :: r) d). cbn [hd].
      apply (SpL_snoc _ _ _ _ _ _ Hk (e_tree e) a (e_lo e) (e_hi e) ev eq_refl).
      cbn [app top_hi hd] in Hsp. exact Hsp.
Qed.

Definition acts3 (tr : list event) : list ev3 :=
  flat_map (fun e => match e with Act p lo hi => [(p, lo, hi)] | _ => [] end) (rev tr).
Lemma acts3_cons ev tr : acts3 (ev :: tr) = acts3 tr ++ match ev with Act p lo hi => [(p, lo, hi)] | _ => [] end.
Proof. unfold acts3. cbn [rev]. rewrite flat_map_app. cbn [flat_map]. now rewrite app_nil_r. Qed.

Section Run.
Variable A : tables.
Hypothesis Hnorec : uses_recovery A = false.
Variable orc : oracle.
Variable fuel : nat.

(* start of the next input token, as the mode and the unread input determine it *)
Definition next_lo (m : mode) (s : pst) : option Z :=
  match m with
  | MHave k _ => Some (tk_lo k)
  | MEof => None
  | MNeed => match rest s with IOk k :: _ => Some (tk_lo k) | _ => None end
  end.

Definition SInv (m : mode) (s : pst) : Prop := StackOK (stk s) (next_lo m s) (acts3 (trace s)).

(* the accepted tree: the children popped by the accepting reduction, spans per the rule, and the Act
   events of the run are exactly those of the nodes below the root, in post-order *)
Definition sfin (r : result) (s : pst) : Prop :=
  match r with
  | ROk (Node p (k :: ks)) => exists evs_b evs_k b lo hi, acts3 (trace s) = evs_b ++ evs_k /\ SpL (k :: ks) b None lo hi evs_k /\
                              (length (k :: ks) = length (stk s) -> b = 0%Z /\ evs_b = [])
  | _ => True
  end.

Lemma reduce_SInv s p la : StackOK (stk s) la (acts3 (trace s)) ->
  match reduce A orc p la (stk s) with
  | (RdCont st', ev) => StackOK st' la (acts3 (trace (logo s ev)))
  | (RdDone r, ev) => la = None -> sfin r (logo s ev)
  | (RdPanic, _) => True
  end.
Proof.
  intros HS.
  (* a panic and a failing action leave nothing to show *)
  destruct (reduce_cases A orc p la (stk s)) as [|nt rhs Ep Hlen Hp|nt rhs e0 Ep Hlen Hp Eo|nt rhs lo hi Ep Hlen Hp Eo Esp];
    [exact I| |exact (fun _ => I)|].
  all: rewrite <- (firstn_skipn (length rhs) (stk s)) in HS.
  all: destruct (firstn (length rhs) (stk s)) as [|e ents] eqn:Ef.
  - (* the accepting reduction, of an empty production *) exact (fun _ => I).
  - (* the accepting reduction *)
    intros ->. cbn [logo sfin]. destruct (map e_tree (rev (e :: ents))) as [|k0 ks] eqn:Ek; [exact I|].
    destruct (stack_split (e :: ents) _ None _ e ltac:(discriminate) HS) as (evs_b & evs_k & Heq & Hb & Hk).
    rewrite Ek in Hk. exists evs_b, evs_k, (top_hi (skipn (length rhs) (stk s))), (e_lo (last (e :: ents) e)), (e_hi e).
    split; [exact Heq|]. split; [exact Hk|].
    intros Hl. rewrite <- Ek, <- Ef in Hl. rewrite (pops_all_skipn _ _ _ Hl) in *. split; [reflexivity|]. inversion Hb. reflexivity.
  - (* no children *)
    rewrite node_span_rev in Esp. inversion Esp; subst lo hi. rewrite (firstn_nil_skipn _ _ Ef) in *.
    cbn [logo trace log]. rewrite acts3_cons.
    apply SO_cons; cbn [e_tree e_lo e_hi rev map]; [exact (Sp_empty p (top_hi (stk s)) la)|].
    rewrite first_lo_node, first_lo_nil. exact HS.
  - (* children *)
    rewrite node_span_rev in Esp. inversion Esp; subst lo hi.
    destruct (stack_split (e :: ents) _ la _ e ltac:(discriminate) HS) as (evs_b & evs_k & Heq & Hb & Hk).
    cbn [logo trace log]. rewrite acts3_cons, Heq, <- app_assoc.
    apply SO_cons; cbn [e_tree e_lo e_hi]; [apply Sp_kids; exact Hk|].
    rewrite first_lo_node. exact Hb.
Qed.

Lemma unrec_sfin s tok s' : sfin (unrec_error A fuel s tok) s'.
Proof. pose proof (unrec_not_ok A fuel s tok) as H. destruct (unrec_error A fuel s tok); [contradiction|exact I..]. Qed.

Theorem SInv_invariant : invariant A orc fuel (fun ph m s => ph = Parse /\ SInv m s) sfin.
Proof.
  intros ph m s o [Eph HS] H. unfold SInv in *.
  destruct H; try discriminate Eph; try exact I; cbn [next_lo] in HS; try rewrite Er in HS.
  - (* pull_eof *) split; [exact Eph|]. cbn [next_lo stk log trace]. rewrite acts3_cons, app_nil_r. exact HS.
  - (* pull_tok *) split; [exact Eph|]. cbn [next_lo stk pulled trace]. rewrite acts3_cons, app_nil_r. exact HS.
  - (* pull_unknown *) apply unrec_sfin.
  - (* shift *) split; [reflexivity|]. cbn [next_lo shifted stk log set_stk trace].
    rewrite acts3_cons, app_nil_r, <- (app_nil_r (acts3 (trace s))). apply SO_cons; [apply Sp_leaf|exact HS].
  - (* reduce *) subst ph. assert (El : next_lo m s = mlo m) by (destruct m; [congruence|reflexivity..]).
    rewrite El in HS. pose proof (reduce_SInv s p (mlo m) HS) as Hr. rewrite Ered in Hr. destruct x as [|r|st'].
    + exact I.
    + destruct m as [|k i|]; [congruence|destruct r; exact I|exact (Hr eq_refl)].
    + split; [reflexivity|]. cbn [stk set_stk trace]. replace (next_lo m _) with (mlo m) by (destruct m; [congruence|reflexivity..]).
      destruct ev; exact Hr.
  - (* error *) apply unrec_sfin.
  - (* recover *) congruence.
Qed.

Theorem whole_tree_spans input p k ks s :
  drive A orc fuel input = (ROk (Node p (k :: ks)), s) ->
  exists evs_b evs_k b lo hi, acts3 (trace s) = evs_b ++ evs_k /\ SpL (k :: ks) b None lo hi evs_k /\
     (length (k :: ks) = length (stk s) -> b = 0%Z /\ evs_b = []).
Proof.
  intros H. refine (run_invariant A orc fuel _ _ SInv_invariant _ _ _ _ _ _ H _ _); try discriminate.
  split; [reflexivity|]. unfold SInv. cbn. constructor.
Qed.
End Run.

(** on validated tables the accepting reduction pops the whole stack, so the statement is about the
    whole tree with nothing to its left: the children of the root start from the default location 0,
    and the Act events of the run are exactly the spans of all nodes below the root, in post-order *)
From LV Require Import LR.RecoverySound.
Section Valid.
Variable A : tables.
Variable C : cert.
Hypothesis Hshape : shape A C = true.
Hypothesis Hexact : exact A C = true.
Hypothesis Hnorec : uses_recovery A = false.
Variable orc : oracle.
Variable fuel : nat.

Theorem whole_tree_spans_valid w p k ks s :
  Forall (fun k => match tk_idx k with Some t => t < tn_names A | None => True end) w ->
  drive A orc fuel (map IOk w) = (ROk (Node p (k :: ks)), s) ->
  exists lo hi, SpL (k :: ks) 0%Z None lo hi (acts3 (trace s)).
Proof.
  intros Hw H.
  destruct (whole_tree_spans A Hnorec orc fuel _ _ _ _ _ H) as (evs_b & evs_k & b & lo & hi & Heq & Hsp & Hall).
  rewrite (names_term A C Hshape Hnorec) in Hw.
  assert (Hno : forall X : Prop, uses_recovery A = true -> X) by (intros X Hu; destruct (eq_true_false_abs _ Hu Hnorec)).
  (* the answer is that of the last call of [step]: the accepting reduce, on a stack that holds exactly its right-hand side *)
  destruct (run_last A orc fuel _ _ (L_invariant A C Hshape Hexact orc fuel) _ _ _ _ _ (LP_init A C w Hw) H ltac:(discriminate))
    as (m1 & s1 & [HL1 _] & Hstep).
  destruct (ok_is_accept A C Hshape Hexact orc fuel m1 s1 _ _ (Hno _) HL1 Hstep) as (_ & -> & _ & _ & Hp).
  destruct (Hall Hp) as [-> ->]. cbn [app] in Heq. rewrite Heq. eauto.
Qed.
End Valid.

(** non-vacuity: S' -> S ; S -> A "x" B ; A -> eps ; B -> eps  on the input x@[5,7]: A is empty before the
    token (span 5,5), B is empty at the end of the input (span 7,7, the end of x), S spans (5,7) *)
Definition mk3 (p : nat) (lo hi : Z) : ev3 := (p, lo, hi).
Example rule_example :
  let x := {| tk_idx := Some 0; tk_id := 0%N; tk_lo := 5%Z; tk_hi := 7%Z |} in
  SpL [Node 1 [Node 2 []; Leaf x; Node 3 []]] 0%Z None 5%Z 7%Z [mk3 2 5 5; mk3 3 7 7; mk3 1 5 7].
Proof.
  intros x. apply SpL_one.
  change [mk3 2 5 5; mk3 3 7 7; mk3 1 5 7] with (([mk3 2 5 5] ++ ([] ++ [mk3 3 7 7])) ++ [(1, 5%Z, 7%Z)]).
  apply Sp_node.
  apply (SpL_cons (Node 2 []) [Leaf x; Node 3 []] 0%Z None 5%Z 5%Z 5%Z 7%Z [mk3 2 5 5] ([] ++ [mk3 3 7 7])); [discriminate| |].
  - exact (Sp_empty 2 0%Z (Some 5%Z)).
  - apply (SpL_cons (Leaf x) [Node 3 []] 5%Z None 5%Z 7%Z 7%Z 7%Z [] [mk3 3 7 7]); [discriminate| |].
    + exact (Sp_leaf x 5%Z None).
    + apply SpL_one. exact (Sp_empty 3 7%Z None).
Qed.
