(** The driver of LR/Driver.v, for any tables, in two forms that the proofs use instead of unfolding it.

    Equations: what [step] and [pre_reduce] compute, keyed on the decoded table entry [tact] (shift,
    reduce, error, missing); [find_state] and [expected_go] by the answers of the [accepts] simulation;
    [reduce] as a view ([reduce_spec]); [error_recovery] with its last part named ([error_recovery_eq]), so that
    proofs about it do not carry the span computation of the error entry through every case; [find_loop] with
    an equation and an induction principle.

    A transition system: [step], [error_recovery], [pre_reduce] and [find_loop] are loops nested in
    one another; [mstep] lists what one turn of any of them does, and [run_reaches] says that every
    answer of [run] other than out-of-budget is reached along a path of these transitions.  A property of
    all runs is proved once per transition ([invariant]) and carried to the functions by [run_invariant],
    [run_safe], [run_state], [run_last] and, loop by loop, [arrives_invariant]. *)
From Coq Require Import List BinInt Arith Lia.
From LV Require Import LR.Driver LR.Validator.
Import ListNotations.

(* a present entry is never ABad; each kind fixes [as_shift], [as_reduce] and the sign *)
Lemma decode_some a :
  match decode (Some a) with
  | AShift t => as_shift a = Some t /\ as_reduce a = None /\ (0 < a)%Z
  | AReduce p => as_shift a = None /\ as_reduce a = Some p /\ (a < 0)%Z
  | AErr => as_shift a = None /\ as_reduce a = None /\ a = 0%Z
  | ABad => False
  end.
Proof.
  unfold decode, as_shift, as_reduce.
  destruct (Z.ltb_spec 0 a), (Z.ltb_spec a 0); repeat split; lia.
Qed.

Lemma skipn_cons_iff {X} (l : list X) n x r :
  skipn n l = x :: r <-> nth_error l n = Some x /\ skipn (S n) l = r.
Proof.
  revert l. induction n as [|n IH]; intros [|y l]; cbn.
  - split; [discriminate|intros [[=] _]].
  - split; [intros [= -> ->]; auto|intros [[= ->] ->]; reflexivity].
  - split; [discriminate|intros [[=] _]].
  - apply IH.
Qed.

Lemma hd_states_of st : hd 0 (states_of st) = top_state st.
Proof. destruct st; reflexivity. Qed.

Lemma length_states_of st : length (states_of st) = S (length st).
Proof. unfold states_of. rewrite app_length, map_length. cbn. lia. Qed.

Lemma skipn_states_of k st : k <= length st -> skipn k (states_of st) = states_of (skipn k st).
Proof.
  intros H. unfold states_of. rewrite skipn_app, skipn_map, map_length.
  replace (k - length st) with 0 by lia. reflexivity.
Qed.

Definition acc_true (A : tables) (f : nat) (l : list nat) (x : nat) : bool :=
  match accepts A f l (Some x) with ATrue => true | _ => false end.

Lemma expected_go_spec A f l : forall n i,
  match expected_go A f l i n with
  | EList L => L = filter (acc_true A f l) (List.seq i n) /\
               forall x, i <= x < i + n -> accepts A f l (Some x) = ATrue \/ accepts A f l (Some x) = AFalse
  | EPanic => exists x, i <= x < i + n /\ accepts A f l (Some x) = APanic
  | EFuel => exists x, i <= x < i + n /\ accepts A f l (Some x) = AFuel
  end.
Proof.
  induction n as [|n IH]; intros i; cbn [expected_go List.seq filter]; [split; [reflexivity|lia]|].
  specialize (IH (S i)). unfold acc_true at 1.
  assert (Hcase : forall x, i <= x < i + S n -> x = i \/ S i <= x < S i + n) by lia.
  destruct (accepts A f l (Some i)) eqn:Ei.
  - (* i is listed *) destruct (expected_go A f l (S i) n) as [L| |].
    + destruct IH as [-> IH]. split; [reflexivity|]. intros x Hx. destruct (Hcase x Hx) as [->|Hx']; auto.
    + destruct IH as (x & Hx & Ha). exists x. split; [lia|exact Ha].
    + destruct IH as (x & Hx & Ha). exists x. split; [lia|exact Ha].
  - (* i is not listed *) destruct (expected_go A f l (S i) n) as [L| |].
    + destruct IH as [-> IH]. split; [reflexivity|]. intros x Hx. destruct (Hcase x Hx) as [->|Hx']; auto.
    + destruct IH as (x & Hx & Ha). exists x. split; [lia|exact Ha].
    + destruct IH as (x & Hx & Ha). exists x. split; [lia|exact Ha].
  - exists i. split; [lia|exact Ei].
  - exists i. split; [lia|exact Ei].
Qed.

Lemma expected_go_in A f l n i L x : expected_go A f l i n = EList L -> In x L ->
  accepts A f l (Some x) = ATrue /\ i <= x < i + n.
Proof.
  intros H Hin. pose proof (expected_go_spec A f l n i) as Hs. rewrite H in Hs. destruct Hs as [-> _].
  apply filter_In in Hin as [Hr Ha]. apply in_seq in Hr. split; [|exact Hr].
  unfold acc_true in Ha. destruct (accepts A f l (Some x)); [reflexivity|discriminate..].
Qed.

(* the test [find_state] makes at one suffix of the stack, named so that the scan can be stated suffix by suffix *)
Definition fs_here (A : tables) (f : nat) (st : list entry) (j : nat) (la : option nat) : fsres :=
  match act_at A (top_state st) (err_col A) with
  | None => FsPanic
  | Some a =>
    match as_shift a with
    | Some es =>
      match accepts A f (es :: states_of st) la with
      | APanic => FsPanic | AFuel => FsFuel | ATrue => FsFound j | AFalse => FsNone
      end
    | None => FsNone
    end
  end.

Lemma find_state_eq A f st j la : find_state A f st j la =
  match fs_here A f st j la with
  | FsNone => match st with [] => FsNone | _ :: below => find_state A f below (S j) la end
  | _ => fs_here A f st j la
  end.
Proof. destruct st; reflexivity. Qed.

Lemma find_state_here A f la : forall st j r, find_state A f st j la = r -> r <> FsNone ->
  exists d, d <= length st /\ fs_here A f (skipn d st) (j + d) la = r.
Proof.
  induction st as [|e below IH]; intros j r H Hr; rewrite find_state_eq in H.
  - exists 0. rewrite Nat.add_0_r. split; [apply le_n|]. cbn [skipn]. destruct (fs_here A f [] j la); congruence.
  - (* an answer at this suffix; or the scan goes on below *)
    destruct (fs_here A f (e :: below) j la) eqn:E;
      [exists 0; rewrite Nat.add_0_r; split; [apply Nat.le_0_l|cbn [skipn]; congruence]..|].
    destruct (IH _ _ H Hr) as (d & Hd & Hh). exists (S d). split; [cbn; lia|]. rewrite <- Nat.add_succ_comm. exact Hh.
Qed.

Lemma fs_here_found A f la st j j' : fs_here A f st j la = FsFound j' ->
  j' = j /\ exists a es, act_at A (top_state st) (err_col A) = Some a /\ as_shift a = Some es /\
                         accepts A f (es :: states_of st) la = ATrue.
Proof.
  unfold fs_here. destruct (act_at A (top_state st) (err_col A)) as [a|]; [|discriminate].
  destruct (as_shift a) as [es|] eqn:Es; [|discriminate].
  destruct (accepts A f (es :: states_of st) la) eqn:E; [|discriminate..].
  intros H. inversion H. split; [reflexivity|]. exists a, es. auto.
Qed.

Lemma find_state_true A f la st j j' : find_state A f st j la = FsFound j' ->
  exists d, j' = j + d /\ d <= length st /\
    exists a es, act_at A (top_state (skipn d st)) (err_col A) = Some a /\ as_shift a = Some es /\
                 accepts A f (es :: states_of (skipn d st)) la = ATrue.
Proof.
  intros E. destruct (find_state_here A f la st j _ E ltac:(discriminate)) as (d & Hd & Hh).
  destruct (fs_here_found A f la _ _ _ Hh) as (-> & Hx). exists d. auto.
Qed.

Lemma logo_stk s ev : stk (logo s ev) = stk s.
Proof. destruct ev; reflexivity. Qed.
Lemma logo_rest s ev : rest (logo s ev) = rest s.
Proof. destruct ev; reflexivity. Qed.

Lemma unrec_not_ok A fuel s tok : match unrec_error A fuel s tok with ROk _ => False | _ => True end.
Proof. unfold unrec_error. destruct (expected_tokens _ _ _); auto. destruct tok; exact I. Qed.

Lemma next_token_not_ok A fuel s : match next_token A fuel s with (NDone (ROk _), _) => False | _ => True end.
Proof.
  unfold next_token. destruct (rest s) as [|[k|e] r]; [exact I| |exact I].
  destruct (tk_idx k); [exact I|exact (unrec_not_ok A fuel _ (Some k))].
Qed.

(* the span of a new node; [popped] is left to right *)
Definition node_span (la_start : option Z) (st popped : list entry) : Z * Z :=
  match popped with
  | [] => let l := match la_start with Some l => l | None => match st with e :: _ => e_hi e | [] => 0%Z end end in (l, l)
  | e :: _ => (e_lo e, e_hi (last popped e))
  end.

Inductive reduce_spec (A : tables) (orc : oracle) (p : nat) (la_start : option Z) (st : list entry)
  : rres * option event -> Prop :=
| rs_panic : reduce_spec A orc p la_start st (RdPanic, None)
| rs_accept nt rhs (Ep : nth_error (prods A) p = Some (nt, rhs)) (Hlen : length rhs <= length st)
    (Hp : p = start_prod A) :
    reduce_spec A orc p la_start st (RdDone (ROk (Node p (map e_tree (rev (firstn (length rhs) st))))), None)
| rs_fail nt rhs e (Ep : nth_error (prods A) p = Some (nt, rhs)) (Hlen : length rhs <= length st)
    (Hp : p <> start_prod A) (Eo : orc p (map e_tree (rev (firstn (length rhs) st))) = Some e) :
    reduce_spec A orc p la_start st (RdDone (RErr (PUser e)), Some (ActFail p e))
| rs_cont nt rhs lo hi (Ep : nth_error (prods A) p = Some (nt, rhs)) (Hlen : length rhs <= length st)
    (Hp : p <> start_prod A) (Eo : orc p (map e_tree (rev (firstn (length rhs) st))) = None)
    (Esp : node_span la_start st (rev (firstn (length rhs) st)) = (lo, hi)) :
    reduce_spec A orc p la_start st
      (RdCont ((goto_at A (top_state (skipn (length rhs) st)) nt,
                Node p (map e_tree (rev (firstn (length rhs) st))), lo, hi) :: skipn (length rhs) st),
       Some (Act p lo hi)).

Lemma reduce_cases A orc p la_start st : reduce_spec A orc p la_start st (reduce A orc p la_start st).
Proof.
  unfold reduce. destruct (nth_error (prods A) p) as [[nt rhs]|] eqn:Ep; [|constructor].
  destruct (length st <? length rhs) eqn:El; [constructor|]. apply Nat.ltb_ge in El.
  destruct (negb (syms_match A (rev (firstn (length rhs) st)) rhs)); [constructor|].
  fold (node_span la_start st (rev (firstn (length rhs) st))).
  destruct (node_span la_start st (rev (firstn (length rhs) st))) as [lo hi] eqn:Esp.
  destruct (Nat.eqb p (start_prod A)) eqn:Es; [apply Nat.eqb_eq in Es; econstructor; eassumption|].
  apply Nat.eqb_neq in Es. destruct (orc p _) as [e|] eqn:Eo; econstructor; eassumption.
Qed.

(* the lookahead of a mode: as [error_recovery] gets it, as the tables see it, and its start *)
Definition mtok (m : mode) : option (token * nat) := match m with MHave k i => Some (k, i) | _ => None end.
Definition mla (m : mode) : la := option_map snd (mtok m).
Definition mlo (m : mode) : option Z := option_map (fun l => tk_lo (fst l)) (mtok m).

Definition mode_of (la : option (token * nat)) : mode := match la with Some (k, i) => MHave k i | None => MEof end.
Lemma mtok_mode_of la : mtok (mode_of la) = la.
Proof. destruct la as [[k i]|]; reflexivity. Qed.
Lemma mode_of_not_need la : mode_of la <> MNeed.
Proof. destruct la as [[k i]|]; discriminate. Qed.
Lemma mode_of_mtok m : m <> MNeed -> mode_of (mtok m) = m.
Proof. destruct m; [congruence|reflexivity..]. Qed.
Lemma mla_mode_of la : mla (mode_of la) = option_map snd la.
Proof. destruct la as [[k i]|]; reflexivity. Qed.
Lemma mlo_mode_of la : mlo (mode_of la) = option_map (fun l => tk_lo (fst l)) la.
Proof. destruct la as [[k i]|]; reflexivity. Qed.

Lemma mode_need_dec m : m = MNeed \/ m <> MNeed.
Proof. destruct m; [left; reflexivity|right; discriminate..]. Qed.

Section Step.
Variable A : tables.
Variable orc : oracle.
Variable f : nat.

(* what [step] does with the answer of [next_token] or [error_recovery]; a token handed back at the end of
   the input is the panic "cannot find token at EOF" *)
Definition after_next (m : mode) (x : next * pst) : sres :=
  match x with
  | (Found k' i', s1) => match m with MEof => Fin RPanic s1 | _ => Cont (MHave k' i') s1 end
  | (NEof, s1) => Cont MEof s1
  | (NDone r, s1) => Fin r s1
  end.

(* after the generated reduce; with a token in hand an accepting reduce is ExtraToken *)
Definition after_reduce (m : mode) (s : pst) (x : rres * option event) : sres :=
  match x with
  | (RdPanic, _) => Fin RPanic s
  | (RdDone r, ev) => Fin (match m, r with MHave k _, ROk _ => RErr (PExtra k) | _, _ => r end) (logo s ev)
  | (RdCont st', ev) => Cont m (set_stk (logo s ev) st')
  end.

Lemma after_next_ok m x v s' : after_next m x = Fin (ROk v) s' -> x = (NDone (ROk v), s').
Proof. destruct x as [[k i| |r] s1], m; cbn [after_next]; congruence. Qed.

Definition shifted (s : pst) (k : token) (t : nat) : pst :=
  log (set_stk s ((t, Leaf k, tk_lo k, tk_hi k) :: stk s)) (Shift (npulled s - 1)).

Lemma step_need s : step A orc f MNeed s = after_next MNeed (next_token A f s).
Proof. reflexivity. Qed.

Lemma step_have k i s : step A orc f (MHave k i) s =
  match tact A (top_state (stk s)) (Some i) with
  | AShift t => Cont MNeed (shifted s k t)
  | AReduce p => after_reduce (MHave k i) s (reduce A orc p (Some (tk_lo k)) (stk s))
  | AErr => after_next (MHave k i) (error_recovery A orc f (Some (k, i)) s)
  | ABad => Fin RPanic s
  end.
Proof.
  unfold step, tact, decode. destruct (act_at A (top_state (stk s)) i) as [a|]; [|reflexivity].
  destruct (as_shift a); [reflexivity|]. destruct (as_reduce a) as [p|].
  - destruct (reduce A orc p (Some (tk_lo k)) (stk s)) as [[|[v|e| |]|st'] ev]; reflexivity.
  - destruct (error_recovery A orc f (Some (k, i)) s) as [[k' i'| |r] s1]; reflexivity.
Qed.

(* a positive entry in the EOF row is not a reduce: the driver treats it as an error *)
Lemma step_eof s : step A orc f MEof s =
  match tact A (top_state (stk s)) None with
  | AReduce p => after_reduce MEof s (reduce A orc p None (stk s))
  | AShift _ | AErr => after_next MEof (error_recovery A orc f None s)
  | ABad => Fin RPanic s
  end.
Proof.
  unfold step, tact. destruct (eof_at A (top_state (stk s))) as [a|]; [|reflexivity].
  pose proof (decode_some a) as Hd.
  destruct (decode (Some a)) as [t|p| |].
  - destruct Hd as (_ & -> & _). destruct (error_recovery A orc f None s) as [[k' i'| |r] s1]; reflexivity.
  - destruct Hd as (_ & -> & _). destruct (reduce A orc p None (stk s)) as [[|r|st'] ev]; reflexivity.
  - destruct Hd as (_ & -> & _). destruct (error_recovery A orc f None s) as [[k' i'| |r] s1]; reflexivity.
  - contradiction.
Qed.

(* the two equations as one, for proofs that treat MHave and MEof alike *)
Lemma step_phase m s : m <> MNeed -> step A orc f m s =
  match tact A (top_state (stk s)) (mla m), m with
  | AShift t, MHave k _ => Cont MNeed (shifted s k t)
  | AReduce p, _ => after_reduce m s (reduce A orc p (mlo m) (stk s))
  | ABad, _ => Fin RPanic s
  | _, _ => after_next m (error_recovery A orc f (mtok m) s)
  end.
Proof.
  destruct m as [|k i|]; intros Hm.
  - congruence.
  - rewrite step_have. cbn [mla mlo mtok option_map fst snd]. destruct (tact A (top_state (stk s)) (Some i)); reflexivity.
  - rewrite step_eof. cbn [mla mlo mtok option_map fst snd]. destruct (tact A (top_state (stk s)) None); reflexivity.
Qed.

Lemma pre_reduce_S n la_start s : pre_reduce A orc (S n) la_start s =
  match tact A (top_state (stk s)) (Some (err_col A)) with
  | AReduce p =>
    match reduce A orc p la_start (stk s) with
    | (RdPanic, _) => PrPanic
    | (RdDone r, ev) => PrDone r (logo s ev)
    | (RdCont k, ev) => pre_reduce A orc n la_start (set_stk (logo s ev) k)
    end
  | ABad => PrPanic
  | _ => PrBreak s
  end.
Proof.
  cbn [pre_reduce]. unfold tact. destruct (act_at A (top_state (stk s)) (err_col A)) as [a|]; [|reflexivity].
  pose proof (decode_some a) as Hd.
  destruct (decode (Some a)) as [t|p| |]; [destruct Hd as (_ & -> & _); reflexivity..|contradiction].
Qed.

Lemma error_recovery_norec la s : uses_recovery A = false ->
  error_recovery A orc f la s = (NDone (unrec_error A f s (option_map fst la)), s).
Proof. intros H. unfold error_recovery. rewrite H. reflexivity. Qed.

(* the entry [error_recovery] pushes after popping j entries, with the span it computes *)
Definition rec_entry (es : nat) (err : perr) (dropped : list token) (la : option (token * nat)) (j : nat) (st : list entry) : entry :=
  let start := match rev (firstn j st) with
               | e :: _ => e_lo e
               | [] => match dropped with
                       | d :: _ => tk_lo d
                       | [] => match skipn j st with e :: _ => e_hi e | [] => 0%Z end
                       end
               end in
  let end_ := match rev dropped with
              | d :: _ => tk_hi d
              | [] => match firstn j st with
                      | e :: _ => e_hi e
                      | [] => match la with Some (k, _) => tk_lo k | None => start end
                      end
              end in
  (es, ErrLeaf err dropped start end_, start, end_).

(* [error_recovery] with its last part named: what it does once the second loop has found a state *)
Definition er_resume (err : perr) (j : nat) (la' : option (token * nat)) (dropped : list token) (s2 : pst) : next * pst :=
  match act_at A (top_state (skipn j (stk s2))) (err_col A) with
  | Some a =>
    match as_shift a with
    | Some es =>
      let s3 := set_stk s2 (rec_entry es err dropped la' j (stk s2) :: skipn j (stk s2)) in
      match la' with Some (k, i) => (Found k i, s3) | None => (NEof, s3) end
    | None => (NDone RPanic, s2)
    end
  | None => (NDone RPanic, s2)
  end.

Lemma error_recovery_eq la s : error_recovery A orc f la s =
  if negb (uses_recovery A) then (NDone (unrec_error A f s (option_map fst la)), s)
  else match unrec_error A f s (option_map fst la) with
       | RErr err =>
         match pre_reduce A orc f (option_map (fun l => tk_lo (fst l)) la) s with
         | PrPanic => (NDone RPanic, s)
         | PrFuel => (NDone RFuel, s)
         | PrDone r s1 => (NDone r, s1)
         | PrBreak s1 =>
           match find_loop A f (S (length (rest s1))) err la [] s1 with
           | FlPanic => (NDone RPanic, s1)
           | FlFuel => (NDone RFuel, s1)
           | FlDone r s2 => (NDone r, s2)
           | FlFound j la' dropped s2 => er_resume err j la' dropped s2
           end
         end
       | r => (NDone r, s)
       end.
Proof. reflexivity. Qed.

Lemma find_loop_eq n err la d s : find_loop A f n err la d s =
  match find_state A f (stk s) 0 (option_map snd la) with
  | FsPanic => FlPanic
  | FsFuel => FlFuel
  | FsFound j => FlFound j la d s
  | FsNone =>
    match la, n with
    | None, _ => FlDone (RErr err) s
    | Some _, 0 => FlFuel
    | Some (k, _), S n' =>
      match next_token A f (log s (Drop (npulled s - 1))) with
      | (Found k' i', s1) => find_loop A f n' err (Some (k', i')) (d ++ [k]) s1
      | (NEof, s1) => find_loop A f n' err None (d ++ [k]) s1
      | (NDone r, s1) => FlDone r s1
      end
    end
  end.
Proof. destruct n, la as [[k i]|]; reflexivity. Qed.

(* induction over the second loop of [error_recovery]: the answers of the scan; when it finds nothing, the lookahead
   and the loop's own budget *)
Lemma find_loop_ind' err (P : nat -> option (token * nat) -> list token -> pst -> flres -> Prop) :
  (forall n la d s, find_state A f (stk s) 0 (option_map snd la) = FsPanic -> P n la d s FlPanic) ->
  (forall n la d s, find_state A f (stk s) 0 (option_map snd la) = FsFuel -> P n la d s FlFuel) ->
  (forall n la d s j, find_state A f (stk s) 0 (option_map snd la) = FsFound j -> P n la d s (FlFound j la d s)) ->
  (forall n d s, find_state A f (stk s) 0 None = FsNone -> P n None d s (FlDone (RErr err) s)) ->
  (forall d s k i, find_state A f (stk s) 0 (Some i) = FsNone -> P 0 (Some (k, i)) d s FlFuel) ->
  (forall n d s k i, find_state A f (stk s) 0 (Some i) = FsNone ->
     (forall la' s1, P n la' (d ++ [k]) s1 (find_loop A f n err la' (d ++ [k]) s1)) ->
     P (S n) (Some (k, i)) d s
       match next_token A f (log s (Drop (npulled s - 1))) with
       | (Found k' i', s1) => find_loop A f n err (Some (k', i')) (d ++ [k]) s1
       | (NEof, s1) => find_loop A f n err None (d ++ [k]) s1
       | (NDone r, s1) => FlDone r s1
       end) ->
  forall n la d s, P n la d s (find_loop A f n err la d s).
Proof.
  intros Hp Hf Hfo Hn H0 HS. induction n as [|n IH]; intros la d s; rewrite find_loop_eq.
  all: destruct (find_state A f (stk s) 0 (option_map snd la)) as [| |j|] eqn:E;
    [exact (Hp _ _ _ _ E)|exact (Hf _ _ _ _ E)|exact (Hfo _ _ _ _ _ E)|].
  all: destruct la as [[k i]|]; [|exact (Hn _ _ _ E)].
  - (* n = 0 *) exact (H0 _ _ _ _ E).
  - exact (HS _ _ _ _ _ E (fun la' s1 => IH la' _ s1)).
Qed.
End Step.

Lemma reduce_done_cases A orc p la_start st r ev : reduce A orc p la_start st = (RdDone r, ev) ->
  (exists v, r = ROk v /\ p = start_prod A) \/ (exists e, r = RErr (PUser e)).
Proof. intros E. pose proof (reduce_cases A orc p la_start st) as H. rewrite E in H. inversion H; eauto. Qed.

(* where the driver stands: in [parse]/[parse_eof]; in the first loop of [error_recovery] (reductions
   on the error column); or in its second loop, having dropped [dropped] so far.  [err] is the error
   that started the recovery. *)
Inductive phase := Parse | PreRed (err : perr) | Find (err : perr) (dropped : list token).

Inductive out := Next (ph : phase) (m : mode) (s : pst) | Stop (r : result) (s : pst).

Definition dropped_in (ph : phase) : list token := match ph with Find _ d => d | _ => [] end.
Lemma dropped_in_nil ph : (forall e d, ph <> Find e d) -> dropped_in ph = [].
Proof. destruct ph as [| |e d]; [reflexivity..|intros H; destruct (H e d eq_refl)]. Qed.

Section Machine.
Variable A : tables.
Variable orc : oracle.
Variable fuel : nat.

(* the lookahead under which the table is consulted *)
Definition col (ph : phase) (m : mode) : la := match ph with PreRed _ => Some (err_col A) | _ => mla m end.

(* an accepting reduction while a token is pending is [ExtraToken]; inside [error_recovery] it is not *)
Definition answer (ph : phase) (m : mode) (r : result) : result :=
  match ph, m, r with Parse, MHave k _, ROk _ => RErr (PExtra k) | _, _, _ => r end.

Lemma answer_post (Q : result -> Prop) ph m r : Q r -> (forall k, Q (RErr (PExtra k))) -> Q (answer ph m r).
Proof.
  intros H1 H2. destruct ph as [|err|err d]; [|exact H1..].
  destruct m as [|k i|]; [exact H1| |exact H1].
  destruct r as [v|e| |]; [apply H2|exact H1..].
Qed.

Definition pulled (s : pst) (r : list item) (loc : Z) : pst :=
  {| stk := stk s; rest := r; npulled := S (npulled s); last_loc := loc; trace := Pull (npulled s) :: trace s |}.

(* the table has an error entry under the lookahead, or a shift entry in the end-of-input row, which the driver
   does not take *)
Definition err_entry (m : mode) (s : pst) : Prop :=
  match tact A (top_state (stk s)) (mla m) with AErr => True | AShift _ => m = MEof | _ => False end.

Inductive mstep : phase -> mode -> pst -> out -> Prop :=
(* [next_token], called by [parse] and by the token-dropping loop *)
| ms_pull_eof ph s (Hph : forall e, ph <> PreRed e) (Er : rest s = []) :
    mstep ph MNeed s (Next ph MEof (log s PullEof))
| ms_pull_err ph s e r (Hph : forall e, ph <> PreRed e) (Er : rest s = IErr e :: r) :
    mstep ph MNeed s (Stop (RErr e) (pulled s r (last_loc s)))
| ms_pull_tok ph s k r i (Hph : forall e, ph <> PreRed e) (Er : rest s = IOk k :: r) (Ei : tk_idx k = Some i) :
    mstep ph MNeed s (Next ph (MHave k i) (pulled s r (tk_hi k)))
| ms_pull_unknown ph s k r (Hph : forall e, ph <> PreRed e) (Er : rest s = IOk k :: r) (Ei : tk_idx k = None) :
    mstep ph MNeed s (Stop (unrec_error A fuel (pulled s r (tk_hi k)) (Some k)) (pulled s r (tk_hi k)))
| ms_bad ph m s (Hm : m <> MNeed) (Hph : forall e d, ph <> Find e d)
    (Et : tact A (top_state (stk s)) (col ph m) = ABad) :
    mstep ph m s (Stop RPanic s)
| ms_shift k i s t (Et : tact A (top_state (stk s)) (Some i) = AShift t) :
    mstep Parse (MHave k i) s (Next Parse MNeed (shifted s k t))
| ms_reduce ph m s p x ev (Hm : m <> MNeed) (Hph : forall e d, ph <> Find e d)
    (Et : tact A (top_state (stk s)) (col ph m) = AReduce p)
    (Ered : reduce A orc p (mlo m) (stk s) = (x, ev)) :
    mstep ph m s match x with
                 | RdPanic => Stop RPanic s
                 | RdDone r => Stop (answer ph m r) (logo s ev)
                 | RdCont st' => Next ph m (set_stk (logo s ev) st')
                 end
(* the report is the answer; or, when it is an error (not a panic or out-of-budget of the expected-list computation)
   and the tables have recovery, recovery starts *)
| ms_error m s (Hm : m <> MNeed)
    (Et : err_entry m s)
    (Hr : uses_recovery A = true -> forall err, unrec_error A fuel s (option_map fst (mtok m)) <> RErr err) :
    mstep Parse m s (Stop (unrec_error A fuel s (option_map fst (mtok m))) s)
| ms_recover m s err (Hm : m <> MNeed)
    (Et : err_entry m s)
    (Hu : uses_recovery A = true) (Ee : unrec_error A fuel s (option_map fst (mtok m)) = RErr err) :
    mstep Parse m s (Next (PreRed err) m s)
| ms_break err m s (Hm : m <> MNeed)
    (Et : match tact A (top_state (stk s)) (Some (err_col A)) with AShift _ | AErr => True | _ => False end) :
    mstep (PreRed err) m s (Next (Find err []) m s)
(* [find_state] on the current stack: resume there, drop the lookahead, or give up at end of input *)
| ms_find_panic err d m s (Hm : m <> MNeed) (Ef : find_state A fuel (stk s) 0 (mla m) = FsPanic) :
    mstep (Find err d) m s (Stop RPanic s)
| ms_give_up err d s (Ef : find_state A fuel (stk s) 0 None = FsNone) :
    mstep (Find err d) MEof s (Stop (RErr err) s)
| ms_drop err d k i s (Ef : find_state A fuel (stk s) 0 (Some i) = FsNone) :
    mstep (Find err d) (MHave k i) s (Next (Find err (d ++ [k])) MNeed (log s (Drop (npulled s - 1))))
(* the suffix that the scan found has a shift in the error column ([find_state_true]) *)
| ms_resume err d m s j es (Hm : m <> MNeed) (Ef : find_state A fuel (stk s) 0 (mla m) = FsFound j)
    (Et : tact A (top_state (skipn j (stk s))) (Some (err_col A)) = AShift es) :
    mstep (Find err d) m s (Next Parse m (set_stk s (rec_entry es err d (mtok m) j (stk s) :: skipn j (stk s)))).

(* [arrives ph m s o]: the functions, started at (ph, m, s), get to o along a path of transitions.
   An answer is that of the last transition; or out-of-budget, because a loop ran out of its own
   fuel, returned with the state reached; or a panic further on, returned with the state of an earlier
   point of the path ([ar_back]: [error_recovery] hands back the state in which it, or its second
   loop, was entered). *)
Inductive arrives : phase -> mode -> pst -> out -> Prop :=
| ar_here ph m s : arrives ph m s (Next ph m s)
| ar_fuel ph m s : arrives ph m s (Stop RFuel s)
| ar_stop ph m s r s' : mstep ph m s (Stop r s') -> arrives ph m s (Stop r s')
| ar_back ph m s s' : arrives ph m s (Stop RPanic s') -> arrives ph m s (Stop RPanic s)
| ar_next ph m s ph1 m1 s1 o : mstep ph m s (Next ph1 m1 s1) -> arrives ph1 m1 s1 o -> arrives ph m s o.

Lemma arrives_step {ph m s o} : mstep ph m s o -> arrives ph m s o.
Proof. destruct o; intros H; [exact (ar_next _ _ _ _ _ _ _ H (ar_here _ _ _))|exact (ar_stop _ _ _ _ _ H)]. Qed.

Lemma arrives_trans {ph m s ph' m' s' o} : arrives ph m s (Next ph' m' s') -> arrives ph' m' s' o -> arrives ph m s o.
Proof.
  intros H1 H2. remember (Next ph' m' s') as o1 eqn:E.
  induction H1 as [| | | |ph m s ph1 m1 s1 o1 H _ IH]; try discriminate E.
  - injection E as -> -> ->. exact H2.
  - exact (ar_next _ _ _ _ _ _ _ H (IH E)).
Qed.

Lemma next_token_arrives ph s : (forall e, ph <> PreRed e) ->
  arrives ph MNeed s match next_token A fuel s with
                     | (Found k i, s1) => Next ph (MHave k i) s1
                     | (NEof, s1) => Next ph MEof s1
                     | (NDone r, s1) => Stop r s1
                     end.
Proof.
  intros Hph. unfold next_token. destruct (rest s) as [|[k|e] r] eqn:Er.
  - exact (arrives_step (ms_pull_eof ph s Hph Er)).
  - destruct (tk_idx k) as [i|] eqn:Ei.
    + exact (arrives_step (ms_pull_tok ph s k r i Hph Er Ei)).
    + exact (arrives_step (ms_pull_unknown ph s k r Hph Er Ei)).
  - exact (arrives_step (ms_pull_err ph s e r Hph Er)).
Qed.

Lemma reduce_arrives ph m s p : m <> MNeed -> (forall e d, ph <> Find e d) ->
  tact A (top_state (stk s)) (col ph m) = AReduce p ->
  arrives ph m s match reduce A orc p (mlo m) (stk s) with
                 | (RdPanic, _) => Stop RPanic s
                 | (RdDone r, ev) => Stop (answer ph m r) (logo s ev)
                 | (RdCont st', ev) => Next ph m (set_stk (logo s ev) st')
                 end.
Proof.
  intros Hm Hph Et. destruct (reduce A orc p (mlo m) (stk s)) as [x ev] eqn:E.
  pose proof (arrives_step (ms_reduce ph m s p x ev Hm Hph Et E)) as H. destruct x; exact H.
Qed.

(* The two loops of [error_recovery], each as the continuation of a path from (ph0, m0, s0): the
   recursive call continues the longer path, and a panic is returned with s0. *)
Lemma pre_reduce_arrives err m ph0 m0 s0 : m <> MNeed -> forall f s, arrives ph0 m0 s0 (Next (PreRed err) m s) ->
  match pre_reduce A orc f (mlo m) s with
  | PrFuel => True
  | PrPanic => arrives ph0 m0 s0 (Stop RPanic s0)
  | PrDone r s1 => arrives ph0 m0 s0 (Stop r s1)
  | PrBreak s1 => arrives ph0 m0 s0 (Next (Find err []) m s1)
  end.
Proof.
  intros Hm. assert (Hph : forall e d, PreRed err <> Find e d) by discriminate.
  induction f as [|f IH]; intros s H0; [exact I|]. rewrite pre_reduce_S.
  pose proof (fun Et => arrives_trans H0 (arrives_step (ms_break err m s Hm Et))) as Hb.
  destruct (tact A (top_state (stk s)) (Some (err_col A))) as [t|p| |] eqn:Et.
  - exact (Hb I).
  - pose proof (arrives_trans H0 (reduce_arrives (PreRed err) m s p Hm Hph Et)) as H.
    destruct (reduce A orc p (mlo m) (stk s)) as [[|r|st'] ev]; [exact (ar_back _ _ _ _ H)|exact H|exact (IH _ H)].
  - exact (Hb I).
  - exact (ar_back _ _ _ _ (arrives_trans H0 (arrives_step (ms_bad _ m s Hm Hph Et)))).
Qed.

Lemma find_loop_arrives err ph0 m0 s0 : forall n d la s, arrives ph0 m0 s0 (Next (Find err d) (mode_of la) s) ->
  match find_loop A fuel n err la d s with
  | FlFuel => True
  | FlPanic => arrives ph0 m0 s0 (Stop RPanic s0)
  | FlDone r s1 => arrives ph0 m0 s0 (Stop r s1)
  | FlFound j la' d' s1 => arrives ph0 m0 s0 (Next (Find err d') (mode_of la') s1) /\
                           find_state A fuel (stk s1) 0 (mla (mode_of la')) = FsFound j
  end.
Proof.
  intros n d la s. pattern (find_loop A fuel n err la d s). revert n la d s. apply (find_loop_ind' A fuel err).
  - intros n la d s Ef H0. rewrite <- mla_mode_of in Ef.
    exact (ar_back _ _ _ _ (arrives_trans H0 (arrives_step (ms_find_panic err d _ s (mode_of_not_need la) Ef)))).
  - intros; exact I.
  - intros n la d s j Ef H0. rewrite <- mla_mode_of in Ef. exact (conj H0 Ef).
  - intros n d s Ef H0. exact (arrives_trans H0 (arrives_step (ms_give_up err d s Ef))).
  - intros; exact I.
  - (* the lookahead is dropped, the next token pulled, and the loop goes on *)
    intros n d s k i Ef IH H0.
    pose proof (arrives_trans H0 (arrives_step (ms_drop err d k i s Ef))) as Hd.
    pose proof (arrives_trans Hd (next_token_arrives (Find err (d ++ [k])) _ ltac:(discriminate))) as Hp.
    destruct (next_token A fuel (log s (Drop (npulled s - 1)))) as [[k' i'| |r] s1];
      [exact (IH (Some (k', i')) s1 Hp)|exact (IH None s1 Hp)|exact Hp].
Qed.

(* at the end of the input the second loop does not pull *)
Lemma find_loop_eof n err d s j la' d' s1 : find_loop A fuel n err None d s = FlFound j la' d' s1 -> la' = None.
Proof. destruct n; cbn [find_loop option_map]; destruct (find_state A fuel (stk s) 0 None); congruence. Qed.

Lemma error_recovery_arrives m s : m <> MNeed ->
  err_entry m s ->
  arrives Parse m s match after_next m (error_recovery A orc fuel (mtok m) s) with
                    | Cont m' s' => Next Parse m' s'
                    | Fin r s' => Stop r s'
                    end.
Proof.
  intros Hm Ht. pose proof (fun Hr => arrives_step (ms_error m s Hm Ht Hr)) as Hs. rewrite error_recovery_eq.
  change (option_map (fun l => tk_lo (fst l)) (mtok m)) with (mlo m).
  destruct (uses_recovery A) eqn:Hu; cbn [negb after_next]; [|apply Hs; discriminate].
  destruct (unrec_error A fuel s _) as [v|err| |] eqn:Ee; [apply Hs; discriminate| |apply Hs; discriminate..].
  pose proof (pre_reduce_arrives err m _ _ _ Hm fuel s (arrives_step (ms_recover m s err Hm Ht Hu Ee))) as Hp.
  destruct (pre_reduce A orc fuel (mlo m) s) as [| |r s1|s1]; cbn [after_next]; [exact Hp|apply ar_fuel|exact Hp|].
  pose proof (find_loop_arrives err (Find err []) m s1 (S (length (rest s1))) [] (mtok m) s1) as Hf.
  rewrite (mode_of_mtok m Hm) in Hf. specialize (Hf (ar_here _ _ _)).
  destruct (find_loop A fuel (S (length (rest s1))) err (mtok m) [] s1) as [| |r s2|j la' d s2] eqn:Efl; cbn [after_next];
    [exact (arrives_trans Hp Hf)|exact (arrives_trans Hp (ar_fuel _ _ _))|exact (arrives_trans Hp Hf)|].
  destruct Hf as [Hl Hj].
  destruct (find_state_true A fuel _ _ _ _ Hj) as (d0 & -> & _ & a & es & Ea & Es & _). cbn [Nat.add]. unfold er_resume. rewrite Ea, Es.
  assert (Et : tact A (top_state (skipn d0 (stk s2))) (Some (err_col A)) = AShift es) by (unfold tact, decode; rewrite Ea, Es; reflexivity).
  pose proof (arrives_trans Hp (arrives_trans Hl (arrives_step (ms_resume err d _ s2 d0 es (mode_of_not_need la') Hj Et)))) as H.
  rewrite mtok_mode_of in H.
  destruct la' as [[k i]|]; [|exact H]. cbn [after_next].
  destruct m; [congruence|exact H|discriminate (find_loop_eof _ _ _ _ _ _ _ _ Efl)].
Qed.

Lemma step_arrives m s :
  arrives Parse m s match step A orc fuel m s with Cont m' s' => Next Parse m' s' | Fin r s' => Stop r s' end.
Proof.
  assert (Hph : forall e d, Parse <> Find e d) by discriminate.
  destruct (mode_need_dec m) as [->|Hm].
  - rewrite step_need. pose proof (next_token_arrives Parse s ltac:(discriminate)) as H.
    destruct (next_token A fuel s) as [[k i| |r] s1]; exact H.
  - rewrite (step_phase A orc fuel m s Hm).
    pose proof (error_recovery_arrives m s Hm) as He. unfold err_entry in He.
    destruct (tact A (top_state (stk s)) (mla m)) as [t|p| |] eqn:Et.
    + destruct m as [|k i|]; [congruence|exact (arrives_step (ms_shift k i s t Et))|exact (He eq_refl)].
    + pose proof (reduce_arrives Parse m s p Hm Hph Et) as H.
      destruct (reduce A orc p (mlo m) (stk s)) as [[|r|st'] ev]; cbn [after_reduce]; [exact H| |exact H].
      destruct m as [|k i|], r; exact H.
    + destruct m; exact (He I).
    + destruct m; exact (arrives_step (ms_bad Parse _ s Hm Hph Et)).
Qed.

Theorem run_reaches : forall n m s r s', run A orc fuel n m s = (r, s') -> arrives Parse m s (Stop r s').
Proof.
  induction n as [|n IH]; intros m s r s' H; cbn [run] in H; [injection H as <- <-; apply ar_fuel|].
  pose proof (step_arrives m s) as Hs. destruct (step A orc fuel m s) as [m1 s1|r1 s1].
  - exact (arrives_trans Hs (IH _ _ _ _ H)).
  - inversion H; subst. exact Hs.
Qed.

Definition invariant (P : phase -> mode -> pst -> Prop) (Q : result -> pst -> Prop) : Prop :=
  forall ph m s o, P ph m s -> mstep ph m s o ->
  match o with Next ph' m' s' => P ph' m' s' | Stop r s' => Q r s' end.

Section Invariant.
Variable P : phase -> mode -> pst -> Prop.
Variable Q : result -> pst -> Prop.
Hypothesis HP : invariant P Q.

(* what holds wherever a function arrives (used loop by loop, e.g. [RecoverySound.pre_reduce_L]): an out-of-budget answer
   and a panic come with some state of the path, and a panic only if some transition answers it *)
Lemma arrives_invariant ph m s o : arrives ph m s o -> P ph m s ->
  match o with
  | Next ph' m' s' => P ph' m' s'
  | Stop r s' => Q r s' \/ (r = RFuel /\ exists ph1 m1, P ph1 m1 s') \/
                 (r = RPanic /\ (exists ph1 m1, P ph1 m1 s') /\ exists s'', Q RPanic s'')
  end.
Proof.
  induction 1 as [ph m s|ph m s|ph m s r s' H|ph m s s' _ IH|ph m s ph1 m1 s1 o H _ IH]; intros HI.
  - exact HI.
  - right. left. eauto.
  - left. exact (HP _ _ _ _ HI H).
  - right. right. split; [reflexivity|]. split; [eauto|].
    destruct (IH HI) as [HQ|[[E _]|(_ & _ & HQ)]]; [eauto|discriminate|exact HQ].
  - exact (IH (HP _ _ _ _ HI H)).
Qed.

(* the answer of a run is that of its last call of [step], in a configuration of which P holds: for what Q alone cannot
   say of an answer (SpanTree, SpanAccount) *)
Lemma run_last : forall n m s r s', P Parse m s -> run A orc fuel n m s = (r, s') -> r <> RFuel ->
  exists m1 s1, P Parse m1 s1 /\ step A orc fuel m1 s1 = Fin r s'.
Proof.
  induction n as [|n IH]; intros m s r s' HI H Hf; cbn [run] in H; [congruence|].
  pose proof (arrives_invariant _ _ _ _ (step_arrives m s) HI) as Hs. destruct (step A orc fuel m s) as [m1 s1|r1 s1] eqn:E.
  - exact (IH _ _ _ _ Hs H Hf).
  - inversion H; subst. exists m, s. split; [exact HI|exact E].
Qed.

(* not for a panic: [ar_back] returns it with an earlier state, of which Q is not known *)
Theorem run_invariant n m s r s' : P Parse m s -> run A orc fuel n m s = (r, s') ->
  r <> RFuel -> r <> RPanic -> Q r s'.
Proof.
  intros HI H Hf Hp. destruct (arrives_invariant _ _ _ _ (run_reaches _ _ _ _ _ H) HI) as [HQ|[[E _]|[E _]]];
    [exact HQ|contradiction..].
Qed.

Theorem run_safe n m s r s' : (forall s0, ~ Q RPanic s0) -> P Parse m s -> run A orc fuel n m s = (r, s') -> r <> RPanic.
Proof.
  intros HQ HI H ->. destruct (arrives_invariant _ _ _ _ (run_reaches _ _ _ _ _ H) HI) as [Hs|[[E _]|(_ & _ & s'' & Hs)]];
    [exact (HQ _ Hs)|discriminate|exact (HQ _ Hs)].
Qed.

(* also for out-of-budget and panic: Q, or a state in which P held *)
Theorem run_state n m s r s' : P Parse m s -> run A orc fuel n m s = (r, s') -> Q r s' \/ exists ph1 m1, P ph1 m1 s'.
Proof.
  intros HI H. destruct (arrives_invariant _ _ _ _ (run_reaches _ _ _ _ _ H) HI) as [HQ|[[_ Hs]|(_ & Hs & _)]]; auto.
Qed.
End Invariant.

Lemma invariant_and P1 Q1 (P2 : phase -> mode -> pst -> Prop) (Q2 : result -> pst -> Prop) : invariant P1 Q1 ->
  (forall ph m s o, P1 ph m s -> P2 ph m s -> mstep ph m s o ->
     match o with Next ph' m' s' => P2 ph' m' s' | Stop r s' => Q2 r s' end) ->
  invariant (fun ph m s => P1 ph m s /\ P2 ph m s) (fun r s => Q1 r s /\ Q2 r s).
Proof.
  intros H1 H2 ph m s o [HP1 HP2] H. specialize (H1 _ _ _ _ HP1 H). specialize (H2 _ _ _ _ HP1 HP2 H).
  destruct o; split; assumption.
Qed.

Lemma invariant_post P Q1 (Q2 : result -> pst -> Prop) : invariant P Q1 ->
  (forall ph m s o, P ph m s -> mstep ph m s o -> match o with Next _ _ _ => True | Stop r s' => Q2 r s' end) ->
  invariant P (fun r s => Q1 r s /\ Q2 r s).
Proof.
  intros H1 H2 ph m s o HP H. specialize (H1 _ _ _ _ HP H). specialize (H2 _ _ _ _ HP H).
  destruct o; [exact H1|split; assumption].
Qed.
End Machine.

Lemma stream_invariant A orc fuel n :
  invariant A orc fuel (fun _ _ s => length (rest s) <= n) (fun _ s => length (rest s) <= n).
Proof.
  intros ph m s o Hr H.
  (* a transition leaves the stream as it is, or pulls one item: arithmetic; only the reduce has to be taken apart,
     for what it logs *)
  destruct H; cbn [rest log pulled shifted set_stk]; try (rewrite Er in *; cbn [length] in *); try lia.
  - (* reduce *) destruct x, ev; cbn [rest logo log set_stk]; lia.
Qed.
