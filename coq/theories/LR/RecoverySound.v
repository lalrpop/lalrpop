(** The stack discipline of the driver on validated tables, with or without error recovery: the stack
    stays linked by justified automaton edges through shifts, reductions, the reductions under the
    error lookahead, token dropping, state popping and the shift of the error terminal.  Hence (C16)
    whatever the input and whatever is dropped or popped during recovery, a tree that the parser
    returns is a derivation tree of the start symbol in which every error node stands exactly where
    the grammar has the recovery symbol `!` (i.e. [wf], which reads an [ErrLeaf] as the terminal in
    the error column). *)
From Coq Require Import List.
From LV Require Import LR.Driver LR.Validator LR.Machine LR.Safety LR.ValidatorSpec.
Import ListNotations.

Section RS.
Variable A : tables.
Variable C : cert.
Hypothesis Hshape : shape A C = true.
Hypothesis Hexact : exact A C = true.
Variable orc : oracle.
Variable fuel : nat.

Notation core := (core C).
Notation Linked := (Linked A core).
Notation wf := (wf A).

Definition tok_ok (k : token) : Prop := match tk_idx k with Some t => t < tn_term A | None => True end.
Definition item_ok (i : item) : Prop := match i with IOk k => tok_ok k | IErr _ => True end.

(* the stack discipline: a linked stack, unread tokens in range, a held lookahead with its own index *)
Definition L (m : mode) (s : pst) : Prop :=
  Linked (stk s) /\ Forall item_ok (rest s) /\
  match m with MHave k i => tk_idx k = Some i /\ i < tn_term A | _ => True end.

Definition fin (r : result) : Prop := match r with ROk v => wf v (Nt (start_nt A)) | _ => True end.

Lemma L_la_ok m s : L m s -> la_ok A (mla m).
Proof. intros (_ & _ & H). destruct m; [exact I|exact (proj2 H)|exact I]. Qed.

(* inside [error_recovery] the tables have an error column *)
Definition LP (ph : phase) (m : mode) (s : pst) : Prop :=
  L m s /\ match ph with Parse => True | _ => uses_recovery A = true end.

Lemma LP_col ph m s : LP ph m s -> la_ok A (col A ph m).
Proof.
  intros [HL Hu]. destruct ph; [exact (L_la_ok m s HL)|exact (err_col_lt A C Hshape Hu)|exact (L_la_ok m s HL)].
Qed.

Lemma LP_init w : Forall tok_ok w -> LP Parse MNeed (init (map IOk w)).
Proof. intros Hw. split; [|exact I]. split; [exact I|]. split; [|exact I]. apply Forall_map. exact Hw. Qed.

Lemma unrec_fin s tok : fin (unrec_error A fuel s tok).
Proof. pose proof (unrec_not_ok A fuel s tok) as H. destruct (unrec_error A fuel s tok); [contradiction|exact I..]. Qed.

Theorem L_invariant : invariant A orc fuel LP (fun r _ => fin r).
Proof.
  intros ph m s o HP H. pose proof (LP_col ph m s HP) as Hcol. destruct HP as [(HL & Hok & Hm') Hu].
  destruct H; try exact I; try (rewrite Er in Hok; inversion Hok as [|? ? Hk Hok']; subst).
  - (* pull_eof *) split; [|exact Hu]. split; [exact HL|]. split; [cbn [rest log]; rewrite Er; constructor|exact I].
  - (* pull_tok *) split; [|exact Hu]. cbn in Hk. unfold tok_ok in Hk. rewrite Ei in Hk. repeat split; assumption.
  - (* pull_unknown *) apply unrec_fin.
  - (* shift *) split; [|exact Hu]. split; [|split; [exact Hok|exact I]].
    exact (shift_linked A core (stk s) k i t HL (proj1 Hm') (proj2 Hm') Et).
  - (* reduce *) pose proof (reduce_facts A C Hshape Hexact orc (stk s) _ p (mlo m) HL Hcol Et) as Hred. rewrite Ered in Hred.
    inversion Hred as [e kids Ho Hne|kids Hst Hwf Hkids Hlen|st' lo hi kids Hne Ho Hkids Hst' HL' Hlen]; subst x.
    + apply (answer_post fin); [exact I|exact (fun _ => I)].
    + apply (answer_post fin); [cbn; subst p; exact Hwf|exact (fun _ => I)].
    + split; [|exact Hu]. split; [exact HL'|]. cbn [rest set_stk]. rewrite logo_rest. split; assumption.
  - (* error *) apply unrec_fin.
  - (* recover *) split; [repeat split; assumption|assumption].
  - (* break *) split; [repeat split; assumption|exact Hu].
  - (* drop *) split; [|exact Hu]. repeat split; assumption.
  - (* resume *) split; [|exact I]. split; [|split; assumption]. cbn [stk set_stk rec_entry Safety.Linked].
    unfold esym. cbn [e_tree e_state sym_of]. split; [constructor|]. split; [|exact (linked_skipn A core j _ HL)].
    exact (e_shift A core _ _ _ (err_col_lt A C Hshape Hu) Et).
Qed.

(* for the reductions under the error lookahead and for one step, as LR/Termination.v and
   LR/TerminationRec.v use it *)
Lemma pre_reduce_L err m s : m <> MNeed -> LP (PreRed err) m s ->
  match pre_reduce A orc fuel (mlo m) s with
  | PrBreak s1 => LP (Find err []) m s1
  | PrDone r _ => fin r
  | _ => True
  end.
Proof.
  intros Hm HP. pose proof (pre_reduce_arrives A orc fuel err m _ _ _ Hm fuel s (ar_here A orc fuel _ _ _)) as Ha.
  destruct (pre_reduce A orc fuel (mlo m) s) as [| |r s1|s1].
  - exact I.
  - exact I.
  - destruct (arrives_invariant A orc fuel _ _ L_invariant _ _ _ _ Ha HP) as [H|[[-> _]|[-> _]]]; [exact H|exact I..].
  - exact (arrives_invariant A orc fuel _ _ L_invariant _ _ _ _ Ha HP).
Qed.

Lemma step_L m s : L m s ->
  match step A orc fuel m s with
  | Cont m' s' => L m' s'
  | Fin r s' => fin r
  end.
Proof.
  intros HL. pose proof (arrives_invariant A orc fuel _ _ L_invariant _ _ _ _ (step_arrives A orc fuel m s) (conj HL I)) as H.
  destruct (step A orc fuel m s) as [m' s'|r s']; [exact (proj1 H)|].
  destruct H as [H|[[-> _]|[-> _]]]; [exact H|exact I..].
Qed.

(** an Ok answer comes only from the accepting reduction at the end of the input, which pops the whole
    stack: [error_recovery] consults the tables under the error terminal and under tokens, and there the
    start production is not reduced.  ([start_eof_only] is asked for only where there is recovery.) *)
Lemma pre_reduce_not_ok : start_eof_only A = true -> uses_recovery A = true -> forall f la s,
  match pre_reduce A orc f la s with PrDone (ROk _) _ => False | _ => True end.
Proof.
  intros Hseo Hu. induction f as [|f IH]; intros la s; [exact I|]. rewrite pre_reduce_S.
  destruct (tact A (top_state (stk s)) (Some (err_col A))) as [t|p| |] eqn:Et; [exact I| |exact I..].
  destruct (reduce A orc p la (stk s)) as [[|r|st'] ev] eqn:E; [exact I| |apply IH].
  destruct (reduce_done_cases A orc _ _ _ _ _ E) as [(v & _ & Hp)|[e ->]]; [|exact I].
  destruct (not_start_on_token A C Hshape _ _ _ Hseo (err_col_lt A C Hshape Hu) Et Hp).
Qed.

Lemma find_loop_not_ok : forall n err la d s, match find_loop A fuel n err la d s with FlDone (ROk _) _ => False | _ => True end.
Proof.
  intros n err la d s. pattern (find_loop A fuel n err la d s). revert n la d s. apply (find_loop_ind' A fuel err); try (intros; exact I).
  (* the one turn that goes on: its answer is that of [next_token], or of the rest of the loop *)
  intros n d s k i _ IH. pose proof (next_token_not_ok A fuel (log s (Drop (npulled s - 1)))) as Hn.
  destruct (next_token A fuel (log s (Drop (npulled s - 1)))) as [[k' i'| |r] s1]; [apply IH..|exact Hn].
Qed.

Lemma error_recovery_not_ok la s : (uses_recovery A = true -> start_eof_only A = true) ->
  match error_recovery A orc fuel la s with (NDone (ROk _), _) => False | _ => True end.
Proof.
  intros Hseo. rewrite error_recovery_eq. pose proof (unrec_not_ok A fuel s (option_map fst la)) as Hun.
  case_eq (uses_recovery A); intros Hu; cbn [negb].
  2: { destruct (unrec_error A fuel s _) as [v|err| |]; [exact Hun|exact I..]. }
  destruct (unrec_error A fuel s (option_map fst la)) as [v|err| |]; [exact Hun| |exact I..].
  pose proof (pre_reduce_not_ok (Hseo Hu) Hu fuel (option_map (fun l => tk_lo (fst l)) la) s) as Hp.
  destruct (pre_reduce A orc fuel _ s) as [| |r s1|s1]; [exact I|exact I|exact Hp|].
  pose proof (find_loop_not_ok (S (length (rest s1))) err la [] s1) as Hfl.
  destruct (find_loop A fuel (S (length (rest s1))) err la [] s1) as [| |r s2|j la' dropped s2]; [exact I|exact I|exact Hfl|].
  unfold er_resume. destruct (act_at A (top_state (skipn j (stk s2))) (err_col A)) as [a|]; [|exact I].
  destruct (as_shift a); [|exact I]. destruct la' as [[k i]|]; exact I.
Qed.

Lemma ok_is_accept m s v s' : (uses_recovery A = true -> start_eof_only A = true) ->
  L m s -> step A orc fuel m s = Fin (ROk v) s' ->
  m = MEof /\ s' = s /\ exists p, reduce A orc p None (stk s) = (RdDone (ROk v), None) /\
  match v with Node _ kids => length kids = length (stk s) | _ => True end.
Proof.
  intros Hseo HL E. destruct (mode_need_dec m) as [->|Hne].
  - rewrite step_need in E. pose proof (next_token_not_ok A fuel s) as Hn. rewrite (after_next_ok _ _ _ _ E) in Hn. destruct Hn.
  - rewrite (step_phase A orc fuel m s Hne) in E.
    assert (Her : after_next m (error_recovery A orc fuel (mtok m) s) <> Fin (ROk v) s').
    { intros H. pose proof (error_recovery_not_ok (mtok m) s Hseo) as Hn. rewrite (after_next_ok _ _ _ _ H) in Hn. exact Hn. }
    destruct (tact A (top_state (stk s)) (mla m)) as [t|p| |] eqn:Et.
    + destruct m; [congruence|discriminate|destruct (Her E)].
    + pose proof (reduce_facts A C Hshape Hexact orc (stk s) _ p (mlo m) (proj1 HL) (L_la_ok m s HL) Et) as Hred.
      inversion Hred as [e kids Ho Hst Heq|kids Hst Hwf Hkids Hlen Heq|st' lo hi kids Hst Ho Hkids Hst' HL' Hlen Heq];
        rewrite <- Heq in E; cbn [after_reduce] in E.
      * (* the action fails *) destruct m; discriminate.
      * (* accept *) destruct m as [|k i|]; [congruence|discriminate|]. inversion E; subst v s'.
        split; [reflexivity|]. split; [reflexivity|]. exists p. split; [symmetry; exact Heq|].
        subst kids. rewrite map_length, rev_length. reflexivity.
      * (* the parse goes on *) discriminate.
    + destruct m; destruct (Her E).
    + destruct m; discriminate.
Qed.

Theorem recovered_tree_is_a_derivation w v s :
  Forall tok_ok w ->
  drive A orc fuel (map IOk w) = (ROk v, s) -> wf v (Nt (start_nt A)).
Proof.
  intros Hw H. exact (run_invariant A orc fuel _ _ L_invariant _ _ _ _ _ (LP_init w Hw) H ltac:(discriminate) ltac:(discriminate)).
Qed.
End RS.
