(** Completeness of the table-driven parser on validated tables: every derivation tree of the start
    symbol (without error leaves) is returned by the run on its yield.  Big-step induction on
    derivation trees; the validator's [complete] conditions provide the item bookkeeping.  Stated for
    actions that do not fail ([no_fail]). *)
From Coq Require Import List Bool Arith Lia.
From LV Require Import LR.Driver LR.Validator LR.Machine LR.Safety LR.ValidatorSpec LR.Soundness.
Import ListNotations.

Lemma skipn_cons_nth {X} (l : list X) n x r : skipn n l = x :: r -> nth_error l n = Some x /\ skipn (S n) l = r.
Proof. apply skipn_cons_iff. Qed.

Lemma Forall2_length {X Y} (R : X -> Y -> Prop) l l' : Forall2 R l l' -> length l = length l'.
Proof. induction 1; simpl; congruence. Qed.

Section Complete.
Variable A : tables.
Variable C : cert.
Hypothesis Hshape : shape A C = true.
Hypothesis Hcomplete : complete A C = true.

Notation lhs := (lhs A).
Notation rhs := (rhs A).

(** derivation trees without error leaves *)
Inductive wfp : tree -> sym -> Prop :=
| wfp_leaf k t : tk_idx k = Some t -> t < tn_names A -> wfp (Leaf k) (Tm t)
| wfp_node p kids : p < length (prods A) -> Forall2 wfp kids (rhs p) -> wfp (Node p kids) (Nt (lhs p)).

Lemma wfp_ind' (P : tree -> sym -> Prop) :
  (forall k t, tk_idx k = Some t -> t < tn_names A -> P (Leaf k) (Tm t)) ->
  (forall p kids, p < length (prods A) -> Forall2 wfp kids (rhs p) -> Forall2 P kids (rhs p) -> P (Node p kids) (Nt (lhs p))) ->
  forall t X, wfp t X -> P t X.
Proof.
  intros Hl Hn. induction t as [k|e d lo0 hi0|p kids IH] using tree_ind'; intros X H.
  - inversion H; subst. auto.
  - inversion H.
  - inversion H as [|? ? Hp Hk]; subst.
    apply (Hn p kids Hp Hk). clear H. induction Hk; constructor; inversion IH; subst; auto.
Qed.

Definition has_item (s p d : nat) (a : la) : Prop :=
  exists it, In it (items_of C s) /\ i_prod it = p /\ i_dot it = d /\ In a (i_la it).

Lemma la_mem_in a l : la_mem a l = true -> In a l.
Proof.
  unfold la_mem. rewrite existsb_exists. intros (b & Hin & Hb).
  destruct a as [x|], b as [y|]; simpl in Hb; try discriminate; [apply Nat.eqb_eq in Hb; subst|]; exact Hin.
Qed.

Lemma has_las_item s p d L a : has_las C s p d L = true -> In a L -> has_item s p d a.
Proof.
  unfold has_las, find_item. destruct (find _ _) as [it|] eqn:Hf; [|discriminate].
  intros Hsub Ha. apply find_some in Hf as [Hin Hb]. apply andb_true_iff in Hb as [H1 H2].
  apply Nat.eqb_eq in H1, H2. exists it. repeat split; auto.
  unfold la_subset in Hsub. rewrite forallb_forall in Hsub. apply la_mem_in. auto.
Qed.

Lemma complete_proj :
  has_las C 0 (start_prod A) 0 [None] = true /\ first_ok A C = true /\
  forall s it, In it (items_of C s) -> item_complete A C s it = true.
Proof.
  pose proof Hcomplete as H. unfold complete in H. rewrite !andb_true_iff in H.
  destruct H as [[H1 H2] H3]. repeat split; auto.
  intros s it Hin.
  pose proof (forallb_seq _ _ H3 s (items_state A C Hshape s it Hin)) as H. rewrite forallb_forall in H. auto.
Qed.

(* The conditions of [complete] in the shape [P_all] uses.  SI: the start item is in state 0; TS: an item
   before a terminal gives a shift and the advanced item; NG: the same over a goto; ER: a completed item gives
   its reduce; CLb, CL: closure, with the lookaheads the certificate computes and with the one that really
   heads the yield of the trees after the dot. *)
Lemma SI : has_item 0 (start_prod A) 0 None.
Proof. destruct complete_proj as (H & _). eapply has_las_item; eauto. left; reflexivity. Qed.

Lemma TS s p d a x : has_item s p d a -> nth_error (rhs p) d = Some (Tm x) ->
  exists s', tact A s (Some x) = AShift s' /\ has_item s' p (S d) a.
Proof.
  intros (it & Hin & <- & <- & Ha) Hn. destruct complete_proj as (_ & _ & H).
  specialize (H s it Hin). unfold item_complete in H. rewrite Hn in H.
  destruct (tact A s (Some x)) as [s'| | |]; try discriminate.
  exists s'. split; [reflexivity|]. eapply has_las_item; eauto.
Qed.

Lemma NG s p d a B : has_item s p d a -> nth_error (rhs p) d = Some (Nt B) ->
  has_item (goto_at A s B) p (S d) a.
Proof.
  intros (it & Hin & <- & <- & Ha) Hn. destruct complete_proj as (_ & _ & H).
  specialize (H s it Hin). unfold item_complete in H. rewrite Hn in H.
  apply andb_true_iff in H as [H _]. eapply has_las_item; eauto.
Qed.

Lemma ER s p a : has_item s p (length (rhs p)) a -> tact A s a = AReduce p.
Proof.
  intros (it & Hin & <- & Hd & Ha). destruct complete_proj as (_ & _ & H).
  specialize (H s it Hin). unfold item_complete in H.
  replace (nth_error (rhs (i_prod it)) (i_dot it)) with (@None sym) in H
    by (symmetry; apply nth_error_None; lia).
  rewrite forallb_forall in H. specialize (H a Ha).
  destruct (tact A s a) as [|p'| |]; try discriminate. apply Nat.eqb_eq in H. congruence.
Qed.

Lemma prods_of_in q B : q < length (prods A) -> lhs q = B -> In q (prods_of A B).
Proof.
  intros Hq Hl. unfold prods_of. apply filter_In. split; [apply seq_in; exact Hq|].
  apply Nat.eqb_eq. exact Hl.
Qed.

Lemma CLb s p d a B q a' : has_item s p d a -> nth_error (rhs p) d = Some (Nt B) ->
  q < length (prods A) -> lhs q = B ->
  In a' (map Some (first_seq C (skipn (S d) (rhs p))) ++
         (if nullable_seq C (skipn (S d) (rhs p)) then [a] else [])) ->
  has_item s q 0 a'.
Proof.
  intros (it & Hin & <- & <- & Ha) Hn Hq Hl Ha'. destruct complete_proj as (_ & _ & H).
  specialize (H s it Hin). unfold item_complete in H. rewrite Hn in H.
  apply andb_true_iff in H as [_ H]. rewrite forallb_forall in H.
  specialize (H q (prods_of_in q B Hq Hl)).
  eapply has_las_item; eauto.
  apply in_app_or in Ha'. apply in_or_app. destruct Ha' as [Hf|Hnl]; [left; exact Hf|right].
  destruct (nullable_seq C _); [|destruct Hnl]. destruct Hnl as [<-|[]]. exact Ha.
Qed.

(* the lookahead a token string presents: its first token, else end of input ([hd_la]) or a given one ([head_la]) *)
Definition hd_la (u : list token) : la := match u with [] => None | k :: _ => tk_idx k end.
Definition head_la (u : list token) (a : la) : la := match u with [] => a | k :: _ => tk_idx k end.
Definition yieldl (l : list tree) : list token := flat_map yield l.

Lemma nat_mem_in x l : nat_mem x l = true -> In x l.
Proof. unfold nat_mem. rewrite existsb_exists. intros (y & Hin & Hb). apply Nat.eqb_eq in Hb. now subst. Qed.

(** nullable / first of the certificate are upper bounds of the real ones *)
Lemma first_facts p : p < length (prods A) ->
  (nullable_seq C (rhs p) = true -> nullable_nt C (lhs p) = true) /\
  (forall t, In t (first_seq C (rhs p)) -> In t (first_nt C (lhs p))).
Proof.
  intros Hp. destruct complete_proj as (_ & H & _). unfold first_ok in H.
  rewrite forallb_forall in H. specialize (H p (proj2 (seq_in _ _) Hp)).
  apply andb_true_iff in H as [H1 H2]. split.
  - intros Hn. rewrite Hn in H1. exact H1.
  - intros t Ht. rewrite forallb_forall in H2. apply nat_mem_in. auto.
Qed.

Definition sym_first (X : sym) (u : list token) : Prop :=
  match u with
  | [] => match X with Tm _ => False | Nt n => nullable_nt C n = true end
  | k :: _ => exists x, tk_idx k = Some x /\
                        match X with Tm t => x = t | Nt n => In x (first_nt C n) end
  end.

Lemma seq_first : forall ts beta, Forall2 (fun t X => sym_first X (yield t)) ts beta ->
  match yieldl ts with
  | [] => nullable_seq C beta = true
  | k :: _ => exists x, tk_idx k = Some x /\ In x (first_seq C beta)
  end.
Proof.
  induction 1 as [|t X ts beta Ht Hts IH]; [reflexivity|].
  unfold yieldl in *. simpl flat_map.
  destruct (yield t) as [|k u] eqn:Hy; simpl.
  - destruct X as [x|n]; [destruct Ht|]. simpl in Ht.
    destruct (flat_map yield ts) as [|k' u'].
    + simpl. rewrite Ht. exact IH.
    + destruct IH as (x & Hk & Hin). exists x. split; [exact Hk|]. simpl. rewrite Ht.
      apply in_or_app. right. exact Hin.
  - destruct Ht as (x & Hk & Hx). exists x. split; [exact Hk|].
    destruct X as [t'|n]; simpl; [left; congruence|]. apply in_or_app. left. exact Hx.
Qed.

Lemma wfp_first : forall t X, wfp t X -> sym_first X (yield t).
Proof.
  apply wfp_ind'; [intros k t Hk Ht; simpl; eauto|]. intros p kids Hp _ HF.
  apply seq_first in HF. rewrite yield_node. unfold yieldl in HF.
  destruct (first_facts p Hp) as [Hn Hf].
  destruct (flat_map yield kids) as [|k u]; simpl.
  - apply Hn. exact HF.
  - destruct HF as (x & Hk' & Hin). exists x. split; [exact Hk'|]. apply Hf. exact Hin.
Qed.

Lemma CL s p d a B q ts : has_item s p d a -> nth_error (rhs p) d = Some (Nt B) ->
  q < length (prods A) -> lhs q = B ->
  Forall2 wfp ts (skipn (S d) (rhs p)) -> has_item s q 0 (head_la (yieldl ts) a).
Proof.
  intros Hit Hn Hq Hl Hts. eapply CLb; eauto.
  assert (HF : Forall2 (fun t X => sym_first X (yield t)) ts (skipn (S d) (rhs p))).
  { induction Hts; constructor; auto using wfp_first. }
  apply seq_first in HF. apply in_or_app.
  destruct (yieldl ts) as [|k u]; cbn [head_la].
  - right. rewrite HF. left; reflexivity.
  - left. destruct HF as (x & Hk & Hin). rewrite Hk. apply in_map. exact Hin.
Qed.

Definition no_fail : oracle := fun _ _ => None.

(* these turns of [step] never reach [error_recovery], so they do not read the budget: hence [forall fuel] *)
Inductive reach : nat -> mode * pst -> mode * pst -> Prop :=
| reach_refl c : reach 0 c c
| reach_step n m s m1 s1 c : (forall fuel, step A no_fail fuel m s = Cont m1 s1) -> reach n (m1, s1) c -> reach (S n) (m, s) c.

Lemma reach_trans n1 n2 a b c : reach n1 a b -> reach n2 b c -> reach (n1 + n2) a c.
Proof. induction 1; simpl; [auto|]. intros. eapply reach_step; eauto. Qed.

Lemma run_reach fuel n m s m' s' k : reach n (m, s) (m', s') ->
  run A no_fail fuel (n + k) m s = run A no_fail fuel k m' s'.
Proof.
  remember (m, s) as c eqn:Hc. remember (m', s') as c' eqn:Hc'. intros H. revert m s Hc.
  induction H as [c0|n0 m0 s0 m1 s1 c0 Hs Hr IH]; intros m s Hc.
  - subst. inversion Hc; subst. reflexivity.
  - inversion Hc; subst. simpl. rewrite Hs. apply IH; auto.
Qed.

(* a configuration at a token boundary with the lookahead loaded *)
Definition Loaded (inp : list token) (m : mode) (s : pst) : Prop :=
  match inp with
  | [] => m = MEof /\ rest s = []
  | x :: r => exists i, m = MHave x i /\ tk_idx x = Some i /\ rest s = map IOk r
  end.

Definition tok_ok (k : token) : Prop := exists i, tk_idx k = Some i /\ i < tn_names A.

Lemma load_next s rst : rest s = map IOk rst -> Forall tok_ok rst ->
  exists m' s', (forall fuel, step A no_fail fuel MNeed s = Cont m' s') /\ stk s' = stk s /\ Loaded rst m' s'.
Proof.
  intros Hr Hok. unfold step, next_token. rewrite Hr. destruct rst as [|x r]; simpl.
  - eexists _, _. split; [reflexivity|]. simpl. auto.
  - inversion Hok as [|? ? (i & Hi & _) _]; subst. rewrite Hi.
    eexists _, _. split; [reflexivity|]. simpl. split; [reflexivity|]. exists i. auto.
Qed.

(* parsing t from a state that holds (p, d, a) with the dot before t's symbol pushes exactly one entry, carrying t,
   and reaches (p, d+1, a); ts' are trees for the rest of the rhs, so the token after t heads them, else it is [a] *)
Definition P (t : tree) : Prop :=
  forall X, wfp t X ->
  forall m s rst p d a ts',
    Loaded (yield t ++ rst) m s -> Forall tok_ok rst ->
    has_item (top_state (stk s)) p d a -> nth_error (rhs p) d = Some X ->
    Forall2 wfp ts' (skipn (S d) (rhs p)) ->
    hd_la rst = head_la (yieldl ts') a \/ (rst = [] /\ head_la (yieldl ts') a = None) ->
    exists n m' s' e, reach n (m, s) (m', s') /\ stk s' = e :: stk s /\ e_tree e = t /\
                      Loaded rst m' s' /\ has_item (e_state e) p (S d) a.

Lemma hd_la_app u r : hd_la (u ++ r) = head_la u (hd_la r).
Proof. destruct u; reflexivity. Qed.

Lemma loaded_la inp m s : Loaded inp m s -> m <> MNeed /\ mla m = hd_la inp.
Proof.
  destruct inp as [|x r]; cbn.
  - intros [-> _]. split; [discriminate|reflexivity].
  - intros (i & -> & Hi & _). split; [discriminate|symmetry; exact Hi].
Qed.

Lemma wfp_sym_of t X : wfp t X -> sym_of A t = Some X.
Proof.
  destruct 1 as [k t Hk _|p kids Hp Hk]; simpl.
  - now rewrite Hk.
  - now rewrite (nth_error_prods A _ Hp).
Qed.

Lemma syms_match_kids : forall (ents : list entry) beta,
  Forall2 wfp (map e_tree ents) beta -> syms_match A ents beta = true.
Proof.
  induction ents as [|e es IH]; intros beta H; inversion H; subst; simpl; [reflexivity|].
  rewrite (wfp_sym_of _ _ H2), sym_eqb_refl. simpl. apply IH. assumption.
Qed.

Lemma wfp_toks_ok : forall t X, wfp t X -> Forall tok_ok (yield t).
Proof.
  apply wfp_ind'.
  - intros k t Hk Ht. simpl. constructor; [eexists; eauto|constructor].
  - intros p kids _ _ H. rewrite yield_node. induction H; simpl; [constructor|apply Forall_app; auto].
Qed.
Lemma wfp_pure : forall t X, wfp t X -> pure t.
Proof.
  apply wfp_ind'; [intros; exact I|]. intros p kids _ _ H. apply pure_node. induction H; constructor; auto.
Qed.

Lemma wfps_toks_ok : forall ts beta, Forall2 wfp ts beta -> Forall tok_ok (flat_map yield ts).
Proof.
  intros ts beta H. induction H as [|t X ts beta Ht _ IH]; simpl; [constructor|].
  apply Forall_app. split; [eapply wfp_toks_ok; eauto|exact IH].
Qed.

(* parsing the remaining children of production q from dot position i *)
Lemma kids_lemma : forall kids, Forall P kids ->
  forall q i m s rst,
    Forall2 wfp kids (skipn i (rhs q)) ->
    Loaded (yieldl kids ++ rst) m s -> Forall tok_ok rst ->
    has_item (top_state (stk s)) q i (hd_la rst) ->
    exists n m' s' ents, reach n (m, s) (m', s') /\ stk s' = ents ++ stk s /\
      map e_tree (rev ents) = kids /\ Loaded rst m' s' /\
      has_item (top_state (stk s')) q (i + length kids) (hd_la rst).
Proof.
  induction 1 as [|k ks Hk Hks IH]; intros q i m s rst Hwf HL Hok Hit.
  - exists 0, m, s, []. simpl. rewrite Nat.add_0_r. repeat split; auto. apply reach_refl.
  - destruct (skipn i (rhs q)) as [|Y beta] eqn:Hsk; inversion Hwf as [|? ? ? ? HkY Hrest]; subst.
    apply skipn_cons_nth in Hsk as [Hnth Hskip]. rewrite <- Hskip in Hrest.
    unfold yieldl in HL. simpl in HL. rewrite <- app_assoc in HL.
    destruct (Hk Y HkY m s (flat_map yield ks ++ rst) q i (hd_la rst) ks HL) as (n1 & m1 & s1 & e & Hr1 & Hst1 & He & HL1 & Hit1); auto.
    { apply Forall_app. split; [|exact Hok]. eapply wfps_toks_ok; eauto. }
    { left. apply hd_la_app. }
    assert (Hit1' : has_item (top_state (stk s1)) q (S i) (hd_la rst)) by (rewrite Hst1; exact Hit1).
    destruct (IH q (S i) m1 s1 rst Hrest HL1 Hok Hit1') as (n2 & m2 & s2 & ents & Hr2 & Hst2 & Hents & HL2 & Hit2).
    exists (n1 + n2), m2, s2, (ents ++ [e]). repeat split; auto.
    + eapply reach_trans; eauto.
    + rewrite Hst2, Hst1, <- app_assoc. reflexivity.
    + rewrite rev_app_distr. simpl. rewrite Hents, He. reflexivity.
    + simpl length. replace (i + S (length ks)) with (S i + length ks) by lia. exact Hit2.
Qed.

Lemma reduce_kids q (ents : list entry) below la_start :
  q < length (prods A) -> Forall2 wfp (map e_tree (rev ents)) (rhs q) ->
  exists lo hi,
    reduce A no_fail q la_start (ents ++ below) =
    if Nat.eqb q (start_prod A) then (RdDone (ROk (Node q (map e_tree (rev ents)))), None)
    else (RdCont ((goto_at A (top_state below) (lhs q), Node q (map e_tree (rev ents)), lo, hi) :: below),
          Some (Act q lo hi)).
Proof.
  intros Hq Hwf. unfold reduce. rewrite (nth_error_prods A _ Hq).
  assert (Hlen : length ents = length (rhs q)).
  { apply Forall2_length in Hwf. rewrite map_length, rev_length in Hwf. exact Hwf. }
  replace (length (ents ++ below) <? length (rhs q)) with false
    by (symmetry; apply Nat.ltb_ge; rewrite app_length; lia).
  rewrite <- Hlen. rewrite firstn_app, Nat.sub_diag, firstn_all. simpl firstn. rewrite app_nil_r.
  rewrite skipn_app, Nat.sub_diag, skipn_all. simpl.
  rewrite (syms_match_kids (rev ents) _ Hwf). simpl.
  destruct (match rev ents with [] => _ | e :: _ => _ end) as [lo hi].
  exists lo, hi. destruct (Nat.eqb q (start_prod A)); reflexivity.
Qed.

Lemma loaded_reduce q ents below inp m s :
  q < length (prods A) -> Forall2 wfp (map e_tree (rev ents)) (rhs q) ->
  Loaded inp m s -> stk s = ents ++ below -> has_item (top_state (stk s)) q (length (rhs q)) (hd_la inp) ->
  exists lo hi, forall fuel, step A no_fail fuel m s =
    after_reduce m s
      (if Nat.eqb q (start_prod A) then (RdDone (ROk (Node q (map e_tree (rev ents)))), None)
       else (RdCont ((goto_at A (top_state below) (lhs q), Node q (map e_tree (rev ents)), lo, hi) :: below),
             Some (Act q lo hi))).
Proof.
  intros Hq Hwf HL Hst Hit. pose proof (ER _ _ _ Hit) as Hact. destruct (loaded_la _ _ _ HL) as [Hm Hla].
  destruct (reduce_kids q ents below (mlo m) Hq Hwf) as (lo & hi & Hred). exists lo, hi. intros fuel.
  rewrite (step_phase A no_fail fuel m s Hm), Hla, Hact, Hst, Hred. reflexivity.
Qed.

Lemma start_ne : forall p d X, nth_error (rhs p) d = Some X -> X <> Nt (lhs (start_prod A)).
Proof.
  intros p d X Hn ->. destruct (Nat.lt_ge_cases p (length (prods A))) as [Hp|Hp].
  - eapply (start_fresh A C Hshape p Hp). eapply nth_error_In; eauto.
  - unfold Validator.rhs in Hn. rewrite nth_overflow in Hn by exact Hp. simpl in Hn.
    destruct d; discriminate.
Qed.

Lemma P_all : forall t, P t.
Proof.
  induction t as [k|e0 d0 lo0 hi0|q kids IHkids] using tree_ind'; intros X Hwf m s rst p d a ts' HL Hok Hit Hnth Hts Hla.
  - (* leaf: shift, then load the next token *)
    inversion Hwf as [k' x Hk Hx|]; subst. simpl in HL. destruct HL as (i & -> & Hi & Hrest).
    assert (i = x) by congruence. subst i.
    destruct (TS _ _ _ _ _ Hit Hnth) as (s' & Hact & Hit').
    set (s1 := shifted s k s').
    destruct (load_next s1 rst) as (m2 & s2 & Hst & Hstk & HL2); auto.
    exists 2, m2, s2, (s', Leaf k, tk_lo k, tk_hi k). repeat split; auto.
    + eapply reach_step; [|eapply reach_step; [exact Hst|apply reach_refl]].
      intros fuel. rewrite step_have, Hact. reflexivity.
  - inversion Hwf.
  - (* node: parse the children, then reduce on the real lookahead *)
    inversion Hwf as [|q' kids' Hq Hkids]; subst.
    assert (Hne : q <> start_prod A).
    { intros ->. eapply start_ne; eauto. }
    rewrite yield_node in HL.
    assert (Hq0 : has_item (top_state (stk s)) q 0 (hd_la rst)).
    { replace (hd_la rst) with (head_la (yieldl ts') a) by (destruct Hla as [<-|[-> ->]]; reflexivity). eapply CL; eauto. }
    destruct (kids_lemma kids IHkids q 0 m s rst) as (n1 & m1 & s1 & ents & Hr1 & Hst1 & Hents & HL1 & Hit1); auto.
    simpl in Hit1. rewrite (Forall2_length _ _ _ Hkids) in Hit1. rewrite <- Hents in Hkids.
    destruct (loaded_reduce q ents (stk s) rst m1 s1 Hq Hkids HL1 Hst1 Hit1) as (lo & hi & Hstep).
    rewrite (proj2 (Nat.eqb_neq _ _) Hne), Hents in Hstep. cbn [after_reduce] in Hstep.
    eexists (n1 + 1), m1, _, (goto_at A (top_state (stk s)) (lhs q), Node q kids, lo, hi).
    split.
    + eapply reach_trans; [exact Hr1|]. eapply reach_step; [exact Hstep|apply reach_refl].
    + split; [reflexivity|]. split; [reflexivity|]. split; [exact HL1|].
      cbn [e_state]. eapply NG; eauto.
Qed.

Lemma run_S orc fuel n m s : run A orc fuel (S n) m s =
  match step A orc fuel m s with Cont m' s' => run A orc fuel n m' s' | Fin r s' => (r, s') end.
Proof. reflexivity. Qed.

(** Completeness: the run on the yield of a derivation tree of the start symbol returns that tree,
    for every sufficiently large step budget. *)
Theorem complete_run t :
  wfp t (Nt (start_nt A)) ->
  exists n, forall fuel k, exists s',
    run A no_fail fuel (n + S k) MNeed (init (map IOk (yield t))) = (ROk t, s').
Proof.
  intros Hwf. inversion Hwf as [|q kids Hq Hkids Heq]; subst.
  assert (q = start_prod A).
  { apply (start_unique A C Hshape); auto. }
  subst q. rewrite yield_node.
  destruct (load_next (init (map IOk (flat_map yield kids))) (flat_map yield kids)) as (m1 & s1 & Hst & Hstk & HL1).
  { reflexivity. } { eapply wfps_toks_ok; eauto. }
  assert (HF : Forall P kids) by (apply Forall_forall; intros; apply P_all).
  destruct (kids_lemma kids HF (start_prod A) 0 m1 s1 []) as (n1 & m2 & s2 & ents & Hr & Hst2 & Hents & HL2 & Hit); auto.
  { unfold yieldl. rewrite app_nil_r. exact HL1. }
  { simpl. rewrite Hstk. simpl. apply SI. }
  simpl in Hit. rewrite (Forall2_length _ _ _ Hkids) in Hit. rewrite <- Hents in Hkids.
  destruct (loaded_reduce (start_prod A) ents [] [] m2 s2 (sh_start A C (shape_spec A C Hshape)) Hkids HL2) as (lo & hi & Hstep);
    [rewrite Hst2, Hstk; reflexivity|exact Hit|].
  rewrite Nat.eqb_refl, Hents in Hstep. destruct HL2 as [-> _]. cbn [after_reduce] in Hstep.
  exists (1 + n1). intros fuel k. eexists.
  replace (1 + n1 + S k) with (S (n1 + S k)) by lia.
  rewrite run_S, Hst, (run_reach fuel _ _ _ _ _ (S k) Hr), run_S, Hstep. reflexivity.
Qed.
End Complete.
