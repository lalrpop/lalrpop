(** Token accounting of the driver, with or without error recovery, for ANY tables: the tokens a
    returned tree records -- its leaves and the dropped_tokens lists of its error nodes, read left to
    right -- form a subsequence of the input, in order.  Nothing is invented, duplicated or reordered;
    what is missing are exactly tokens of stack entries popped during recovery. *)
From Coq Require Import List BinInt Lia.
From LV Require Import LR.Driver LR.Machine LR.Soundness.
Import ListNotations.

Inductive Subseq {X} : list X -> list X -> Prop :=
| ss_nil : Subseq [] []
| ss_skip x l1 l2 : Subseq l1 l2 -> Subseq l1 (x :: l2)
| ss_take x l1 l2 : Subseq l1 l2 -> Subseq (x :: l1) (x :: l2).

Lemma subseq_nil_l {X} (l : list X) : Subseq [] l.
Proof. induction l; constructor; assumption. Qed.
Lemma subseq_refl {X} (l : list X) : Subseq l l.
Proof. induction l; constructor; assumption. Qed.
Lemma subseq_trans {X} (a b c : list X) : Subseq a b -> Subseq b c -> Subseq a c.
Proof.
  intros Hab Hbc. revert a Hab. induction Hbc as [|x b c Hbc IH|x b c Hbc IH]; intros a Hab.
  - exact Hab.
  - apply ss_skip. apply IH. exact Hab.
  - inversion Hab as [|x' a' b' Hab'|x' a' b' Hab']; subst.
    + apply ss_skip. apply IH. exact Hab'.
    + apply ss_take. apply IH. exact Hab'.
Qed.
Lemma subseq_app {X} (a b c d : list X) : Subseq a b -> Subseq c d -> Subseq (a ++ c) (b ++ d).
Proof. intros Hab Hcd. induction Hab; cbn [app]; [exact Hcd|apply ss_skip; assumption|apply ss_take; assumption]. Qed.
Lemma subseq_app_r {X} (a b c : list X) : Subseq a b -> Subseq a (b ++ c).
Proof. intros H. rewrite <- (app_nil_r a). apply subseq_app; [exact H|apply subseq_nil_l]. Qed.
Lemma subseq_app_l {X} (a b c : list X) : Subseq a c -> Subseq a (b ++ c).
Proof. intros H. change a with ([] ++ a). apply subseq_app; [apply subseq_nil_l|exact H]. Qed.
Lemma subseq_length {X} (a b : list X) : Subseq a b -> length a <= length b.
Proof. induction 1; cbn; lia. Qed.

(** what a tree records of the input *)
Fixpoint rec (t : tree) : list token :=
  match t with
  | Leaf k => [k]
  | ErrLeaf _ d _ _ => d
  | Node _ kids => (fix go (l : list tree) : list token :=
                      match l with [] => [] | x :: r => rec x ++ go r end) kids
  end.
Lemma rec_node p kids : rec (Node p kids) = flat_map rec kids.
Proof. reflexivity. Qed.

(* the dropped_tokens lists of the error nodes, left to right *)
Fixpoint drops (t : tree) : list (list token) :=
  match t with
  | Leaf _ => []
  | ErrLeaf _ d _ _ => [d]
  | Node _ kids => (fix go (l : list tree) : list (list token) :=
                      match l with [] => [] | x :: r => drops x ++ go r end) kids
  end.
Lemma drops_node p kids : drops (Node p kids) = flat_map drops kids.
Proof. reflexivity. Qed.

Lemma yield_subseq_rec t : Subseq (yield t) (rec t).
Proof.
  induction t as [k|e d lo hi|p kids IH] using tree_ind'.
  - apply subseq_refl.
  - apply subseq_nil_l.
  - rewrite yield_node, rec_node. induction IH as [|k r Hk _ IHr]; cbn [flat_map]; [constructor|].
    apply subseq_app; assumption.
Qed.

Lemma drops_subseq_rec t : Forall (fun d => Subseq d (rec t)) (drops t).
Proof.
  induction t as [k|e d lo hi|p kids IH] using tree_ind'.
  - constructor.
  - constructor; [apply subseq_refl|constructor].
  - rewrite drops_node, rec_node. induction IH as [|k r Hk _ IHr]; cbn [flat_map]; [constructor|].
    apply Forall_app. split.
    + eapply Forall_impl; [|exact Hk]. intros d Hd. apply subseq_app_r. exact Hd.
    + eapply Forall_impl; [|exact IHr]. intros d Hd. apply subseq_app_l. exact Hd.
Qed.

Definition recs (st : list entry) : list token := flat_map (fun e => rec (e_tree e)) (rev st).
Lemma recs_cons e st : recs (e :: st) = recs st ++ rec (e_tree e).
Proof. unfold recs. cbn [rev]. rewrite flat_map_app. cbn [flat_map]. now rewrite app_nil_r. Qed.
Lemma recs_split k st : recs st = recs (skipn k st) ++ flat_map rec (map e_tree (rev (firstn k st))).
Proof. unfold recs. rewrite (flat_map_rev_split _ k st), flat_map_map. reflexivity. Qed.

Section Acc.
Variable A : tables.
Variable orc : oracle.
Variable fuel : nat.
Variable w : list token.

Definition latok (la : option (token * nat)) : list token := match la with Some (k, _) => [k] | None => [] end.

(* [pre]: the part of the input already handed over; the stack and the dropped tokens collected so far
   record a subsequence of it *)
Definition G (pre : list token) (la : option (token * nat)) (dropped : list token) (s : pst) : Prop :=
  pre ++ latok la ++ toks (rest s) = w /\ Subseq (recs (stk s) ++ dropped) pre.

Definition fin (r : result) : Prop := match r with ROk v => Subseq (rec v) w | _ => True end.

Lemma G_stack_in_w pre la d s : G pre la d s -> Subseq (recs (stk s)) w.
Proof.
  intros [Hw Hs]. rewrite <- Hw. apply subseq_app_r. eapply subseq_trans; [|exact Hs].
  apply subseq_app_r. apply subseq_refl.
Qed.

Lemma unrec_fin s tok : fin (unrec_error A fuel s tok).
Proof. pose proof (unrec_not_ok A fuel s tok) as H. destruct (unrec_error A fuel s tok); [contradiction|exact I..]. Qed.

Lemma reduce_recs p la_start st :
  match reduce A orc p la_start st with
  | (RdCont st', _) => recs st' = recs st
  | (RdDone (ROk v), _) => Subseq (rec v) (recs st)
  | _ => True
  end.
Proof.
  destruct (reduce_cases A orc p la_start st) as [|nt rhs Ep Hlen Hp|nt rhs e0 Ep Hlen Hp Eo|nt rhs lo hi Ep Hlen Hp Eo Esp];
    [exact I| |exact I|].
  - rewrite rec_node, (recs_split (length rhs) st). apply subseq_app_l, subseq_refl.
  - rewrite recs_cons. cbn [e_tree]. rewrite rec_node. symmetry. apply recs_split.
Qed.

Lemma logo_stk s ev : stk (logo s ev) = stk s.
Proof. exact (Machine.logo_stk s ev). Qed.

Definition T (ph : phase) (m : mode) (s : pst) : Prop := exists pre, G pre (mtok m) (dropped_in ph) s.

Theorem T_invariant : invariant A orc fuel T (fun r _ => fin r).
Proof.
  intros ph m s o [pre HG] H. pose proof (G_stack_in_w _ _ _ _ HG) as Hin. destruct HG as [Hw Hs].
  destruct H; cbn [mtok dropped_in latok app] in *; try exact I.
  - (* pull_eof *) exists pre. split; [exact Hw|exact Hs].
  - (* pull_tok *) exists pre. rewrite Er in Hw. split; [exact Hw|exact Hs].
  - (* pull_unknown *) apply unrec_fin.
  - (* shift *) exists (pre ++ [k]). rewrite app_nil_r in Hs. split.
    + rewrite <- app_assoc. exact Hw.
    + cbn [shifted stk log set_stk]. rewrite app_nil_r, recs_cons. apply subseq_app; [exact Hs|apply subseq_refl].
  - (* reduce *) pose proof (reduce_recs p (mlo m) (stk s)) as Hred. rewrite Ered in Hred.
    pose proof (dropped_in_nil ph Hph) as Hd.
    rewrite Hd, app_nil_r in Hs. destruct x as [|r|st'].
    + exact I.
    + apply (answer_post fin); [|exact (fun _ => I)]. destruct r as [v| | |]; [|exact I..].
      exact (subseq_trans _ _ _ Hred Hin).
    + exists pre. rewrite Hd. split; [cbn [rest set_stk]; rewrite logo_rest; exact Hw|].
      cbn [stk set_stk]. rewrite Hred, app_nil_r. exact Hs.
  - (* error *) apply unrec_fin.
  - (* recover *) exists pre. split; assumption.
  - (* break *) exists pre. split; assumption.
  - (* drop *) exists (pre ++ [k]). split.
    + cbn [rest log mtok latok app]. rewrite <- app_assoc. exact Hw.
    + cbn [stk log dropped_in]. rewrite app_assoc. apply subseq_app; [exact Hs|apply subseq_refl].
  - (* resume: the error entry records the dropped tokens; what the popped entries recorded is forgotten *)
    exists pre. split; [exact Hw|]. cbn [stk set_stk]. rewrite app_nil_r, recs_cons. cbn [rec_entry e_tree rec].
    eapply subseq_trans; [|exact Hs]. rewrite (recs_split j (stk s)), <- app_assoc.
    apply subseq_app; [apply subseq_refl|]. apply subseq_app_l. apply subseq_refl.
Qed.
End Acc.

Theorem recorded_tokens_are_a_subsequence A orc fuel input v s :
  drive A orc fuel input = (ROk v, s) -> Subseq (rec v) (toks input).
Proof.
  intros H. refine (run_invariant A orc fuel _ _ (T_invariant A orc fuel (toks input)) _ _ _ _ _ _ H _ _); try discriminate.
  exists []. split; [reflexivity|constructor].
Qed.

Corollary leaves_are_a_subsequence A orc fuel input v s :
  drive A orc fuel input = (ROk v, s) -> Subseq (yield v) (toks input).
Proof. intros H. eapply subseq_trans; [apply yield_subseq_rec|]. eapply recorded_tokens_are_a_subsequence; eauto. Qed.

Corollary dropped_lists_are_subsequences A orc fuel input v s :
  drive A orc fuel input = (ROk v, s) -> Forall (fun d => Subseq d (toks input)) (drops v).
Proof.
  intros H. eapply Forall_impl; [|apply drops_subseq_rec]. intros d Hd.
  eapply subseq_trans; [exact Hd|]. eapply recorded_tokens_are_a_subsequence; eauto.
Qed.

(** non-vacuity: tables lalrpop emits for  E = E "+" T | T;  T = N | "(" E ")" | !  (terminals 0 "+",
    1 "(", 2 ")", 3 N, 4 the error column) on the input  ( ) ) + N : recovery pops the entries of the
    first two tokens, drops the third, and the result records the last three tokens only *)
Definition ex_tables : tables := {| tn_term := 5; tn_names := 4; uses_recovery := true; action := [0; 2; 0; 6; 7; 0; 2; 0; 6; 7; 0; 2; 0; 6; 7; 3; 0; 0; 0; 0; (-4); 0; (-4); 0; 0; (-5); 0; (-5); 0; 0; (-7); 0; (-7); 0; 0; 3; 0; 10; 0; 0; (-3); 0; (-3); 0; 0; (-6); 0; (-6); 0; 0]%Z; eof_action := [0; 0; 0; (-8); (-4); (-5); (-7); 0; (-3); (-6)]%Z;
   goto_tbl := [[0; 0; 0; 0; 0; 0; 0; 0; 0; 0]; [0; 0; 0; 0; 0; 0; 0; 0; 0; 0]; [3; 7; 3; 3; 3; 3; 3; 3; 3; 3]; [4; 4; 8; 4; 4; 4; 4; 4; 4; 4]; [0; 0; 0; 0; 0; 0; 0; 0; 0; 0]]; prods := [(0, []); (1, []); (2, [Nt 2; Tm 0; Nt 3]); (2, [Nt 3]); (3, [Tm 3]); (3, [Tm 1; Nt 2; Tm 2]); (3, [Tm 4]); (4, [Nt 2])]; start_prod := 7; sim_pop := [0; 0; 3; 1; 1; 3; 1; 0]; sim_nt := [Some 0; Some 1; Some 2; Some 2; Some 3; Some 3; Some 3; None] |}.
Definition ex_tk (i : nat) (n : Z) : token := {| tk_idx := Some i; tk_id := Z.to_N n; tk_lo := (2*n)%Z; tk_hi := (2*n+1)%Z |}.
Definition ex_input : list item := [IOk (ex_tk 1 0); IOk (ex_tk 2 1); IOk (ex_tk 2 2); IOk (ex_tk 0 3); IOk (ex_tk 3 4)].
Example recovery_records_a_strict_subsequence :
  exists v s, drive ex_tables (fun _ _ => None) 200 ex_input = (ROk v, s) /\
              rec v = [ex_tk 2 2; ex_tk 0 3; ex_tk 3 4] /\ drops v = [[ex_tk 2 2]] /\ yield v = [ex_tk 0 3; ex_tk 3 4].
Proof. eexists. eexists. split; [vm_compute; reflexivity|]. repeat split; vm_compute; reflexivity. Qed.
