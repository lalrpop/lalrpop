(** Span accounting of error recovery (C16), for ANY tables: on an input whose tokens carry
    non-negative, well-formed, pairwise ordered spans, a returned tree accounts for a contiguous part
    of the input token by token -- every token is a leaf, or belongs to exactly the error node that
    swallowed it (as a dropped token or as a token of a popped stack entry) and then lies inside that
    node's span; error-node spans are well-formed, ordered and disjoint. *)
From Coq Require Import List BinInt Lia.
From LV Require Import LR.Driver LR.Validator LR.Machine LR.Soundness LR.SpanTree.
Import ListNotations.
Local Open Scope Z_scope.

Definition within (lo hi : Z) (k : token) : Prop := lo <= tk_lo k /\ tk_hi k <= hi.
Definition Within (lo hi : Z) (l : list token) : Prop := Forall (within lo hi) l.

Lemma Within_weaken lo hi lo' hi' l : lo' <= lo -> hi <= hi' -> Within lo hi l -> Within lo' hi' l.
Proof. intros H1 H2 H. eapply Forall_impl; [|exact H]. intros k [A B]. split; lia. Qed.
Lemma Within_app lo hi a b : Within lo hi (a ++ b) <-> Within lo hi a /\ Within lo hi b.
Proof. apply Forall_app. Qed.
Lemma Within_join lo1 hi1 lo2 hi2 a b : lo1 <= hi1 -> hi1 <= lo2 -> lo2 <= hi2 ->
  Within lo1 hi1 a -> Within lo2 hi2 b -> Within lo1 hi2 (a ++ b).
Proof.
  intros H1 H2 H3 Ha Hb. apply Within_app. split.
  - eapply Within_weaken; [| |exact Ha]; lia.
  - eapply Within_weaken; [| |exact Hb]; lia.
Qed.

(** [Acc t seg lo hi]: the tree t accounts for exactly the tokens seg (a contiguous piece of the
    input), and (lo, hi) is the span it was given *)
Inductive Acc : tree -> list token -> Z -> Z -> Prop :=
| Acc_leaf k : Acc (Leaf k) [k] (tk_lo k) (tk_hi k)
| Acc_err e d lo hi pp : lo <= hi -> Within lo hi (pp ++ d) -> Acc (ErrLeaf e d lo hi) (pp ++ d) lo hi
| Acc_empty p l : Acc (Node p []) [] l l
| Acc_node p k ks segs lo hi : AccL (k :: ks) segs lo hi -> Acc (Node p (k :: ks)) (concat segs) lo hi
with AccL : list tree -> list (list token) -> Z -> Z -> Prop :=
| AccL_one t seg lo hi : Acc t seg lo hi -> AccL [t] [seg] lo hi
| AccL_cons t r seg segs lo hi lo2 hi2 : r <> [] -> Acc t seg lo hi -> AccL r segs lo2 hi2 -> hi <= lo2 ->
    AccL (t :: r) (seg :: segs) lo hi2.

Scheme Acc_mut := Induction for Acc Sort Prop
with AccL_mut := Induction for AccL Sort Prop.
Combined Scheme Acc_AccL_ind from Acc_mut, AccL_mut.

Definition tok_wf (k : token) : Prop := 0 <= tk_lo k /\ tk_lo k <= tk_hi k.

Lemma acc_accl_facts :
  (forall t seg lo hi, Acc t seg lo hi -> Forall tok_wf seg -> lo <= hi /\ Within lo hi seg) /\
  (forall ts segs lo hi, AccL ts segs lo hi -> Forall tok_wf (concat segs) -> lo <= hi /\ Within lo hi (concat segs)).
Proof.
  apply Acc_AccL_ind.
  - intros k Hw. inversion Hw as [|? ? [H0 H1] _]; subst. split; [exact H1|]. constructor; [split; lia|constructor].
  - intros e d lo hi pp Hle Hwi _. auto.
  - intros p l _. split; [lia|constructor].
  - intros p k ks segs lo hi _ IH Hw. exact (IH Hw).
  - intros t seg lo hi _ IH Hw. cbn [concat] in *. rewrite app_nil_r in *. exact (IH Hw).
  - intros t r seg segs lo hi lo2 hi2 Hr _ IH1 _ IH2 Hle Hw. cbn [concat] in *.
    apply Forall_app in Hw as [Hw1 Hw2]. destruct (IH1 Hw1) as [A1 B1]. destruct (IH2 Hw2) as [A2 B2].
    split; [lia|exact (Within_join _ _ _ _ _ _ A1 Hle A2 B1 B2)].
Qed.

Lemma acc_facts : forall t seg lo hi, Acc t seg lo hi -> Forall tok_wf seg -> lo <= hi /\ Within lo hi seg.
Proof. exact (proj1 acc_accl_facts). Qed.

Lemma accl_facts : forall ts segs lo hi, AccL ts segs lo hi -> Forall tok_wf (concat segs) -> lo <= hi /\ Within lo hi (concat segs).
Proof. exact (proj2 acc_accl_facts). Qed.

Lemma AccL_snoc : forall l segs lo hi, AccL l segs lo hi ->
  forall t seg lo' hi', Acc t seg lo' hi' -> hi <= lo' -> AccL (l ++ [t]) (segs ++ [seg]) lo hi'.
Proof.
  induction 1 as [t0 seg0 lo hi H0|t0 r seg0 segs0 lo hi lo2 hi2 Hr H0 Hrest IH Hle]; intros t seg lo' hi' Ht Hord.
  - cbn [app]. apply (AccL_cons t0 [t] seg0 [seg] lo hi lo' hi'); [discriminate|exact H0|apply AccL_one; exact Ht|exact Hord].
  - cbn [app]. apply (AccL_cons t0 (r ++ [t]) seg0 (segs0 ++ [seg]) lo hi lo2 hi'); [|exact H0|exact (IH t seg lo' hi' Ht Hord)|exact Hle].
    destruct r; [congruence|discriminate].
Qed.

(* AccL holds of non-empty lists only, so the node rule needs no cons in its statement *)
Lemma Acc_kids p kids segs lo hi : AccL kids segs lo hi -> Acc (Node p kids) (concat segs) lo hi.
Proof. intros H. destruct H; apply Acc_node; [apply AccL_one|eapply AccL_cons]; eassumption. Qed.

(* the stack, top first, accounts for the consumed tokens [pre], entry by entry, spans ordered *)
Inductive StackAcc : list entry -> list token -> Prop :=
| SA_nil : StackAcc [] []
| SA_cons e below pre seg : StackAcc below pre -> Acc (e_tree e) seg (e_lo e) (e_hi e) ->
    top_hi below <= e_lo e -> StackAcc (e :: below) (pre ++ seg).

Lemma stack_pop : forall ents below pre d, ents <> [] -> StackAcc (ents ++ below) pre ->
  exists pre_b segs, pre = pre_b ++ concat segs /\ StackAcc below pre_b /\
    AccL (map e_tree (rev ents)) segs (e_lo (last ents d)) (e_hi (hd d ents)) /\
    top_hi below <= e_lo (last ents d).
Proof.
  induction ents as [|e ents IH]; intros below pre d Hne H; [congruence|].
  cbn [app] in H. inversion H as [|e0 below0 pre0 seg Hrest Hacc Hord]; subst.
  destruct ents as [|e2 r].
  - cbn [app] in *. exists pre0, [seg]. cbn [concat rev app map last hd]. rewrite app_nil_r.
    repeat split; auto. apply AccL_one. exact Hacc.
  - destruct (IH below pre0 d ltac:(discriminate) Hrest) as (pre_b & segs & -> & Hb & Hk & Hord2).
    exists pre_b, (segs ++ [seg]). rewrite concat_app. cbn [concat]. rewrite app_nil_r, app_assoc.
    split; [reflexivity|]. split; [exact Hb|].
    change (rev (e :: e2 :: r)) with (rev (e2 :: r) ++ [e]). rewrite map_app. cbn [map].
    change (last (e :: e2 :: r) d) with (last (e2 :: r) d). cbn [hd]. split; [|exact Hord2].
    apply (AccL_snoc _ _ _ _ Hk (e_tree e) seg (e_lo e) (e_hi e) Hacc).
    cbn [app top_hi hd] in Hord. exact Hord.
Qed.

Lemma stackacc_wf st pre : StackAcc st pre -> Forall tok_wf pre -> top_hi st >= 0 /\ Within 0 (top_hi st) pre.
Proof.
  induction 1 as [|e below pre seg Hb IH Hacc Hord]; intros Hw.
  - cbn. split; [lia|constructor].
  - apply Forall_app in Hw as [Hw1 Hw2]. destruct (IH Hw1) as [A B]. destruct (acc_facts _ _ _ _ Hacc Hw2) as [C D].
    cbn [top_hi]. split; [lia|]. apply (Within_join 0 (top_hi below) (e_lo e)); [lia|exact Hord|exact C|exact B|exact D].
Qed.

(* [stack_pop] for a possibly empty segment, with what [accl_facts] says of its span *)
Lemma stack_pop_span ents below pre : StackAcc (ents ++ below) pre -> Forall tok_wf pre ->
  exists pre_b pp, pre = pre_b ++ pp /\ StackAcc below pre_b /\
    match ents with
    | [] => pp = []
    | e :: _ => let lo := e_lo (last ents e) in top_hi below <= lo /\ lo <= e_hi e /\ Within lo (e_hi e) pp
    end.
Proof.
  intros HS Hwf. destruct ents as [|e P']; [exists pre, []; rewrite app_nil_r; auto|].
  destruct (stack_pop (e :: P') below pre e ltac:(discriminate) HS) as (pre_b & segs & -> & Hb & Hk & Hord).
  apply Forall_app in Hwf as [_ Hwf]. destruct (accl_facts _ _ _ _ Hk Hwf). exists pre_b, (concat segs). auto.
Qed.

(* the spans of the error nodes, left to right *)
Fixpoint errspans (t : tree) : list (Z * Z) :=
  match t with
  | Leaf _ => []
  | ErrLeaf _ _ lo hi => [(lo, hi)]
  | Node _ kids => (fix go (l : list tree) : list (Z * Z) :=
                      match l with [] => [] | x :: r => errspans x ++ go r end) kids
  end.
Lemma errspans_node p kids : errspans (Node p kids) = flat_map errspans kids.
Proof. reflexivity. Qed.

(* lo <= a1 <= b1 <= a2 <= ... <= bn <= hi *)
Fixpoint spchain (lo : Z) (l : list (Z * Z)) (hi : Z) : Prop :=
  match l with [] => lo <= hi | (a, b) :: r => lo <= a /\ a <= b /\ spchain b r hi end.
Lemma spchain_le : forall l lo hi, spchain lo l hi -> lo <= hi.
Proof. induction l as [|[a b] r IH]; cbn [spchain]; intros lo hi H; [exact H|]. destruct H as (A & B & C). specialize (IH _ _ C). lia. Qed.
Lemma spchain_app : forall l1 l2 lo m m' hi, spchain lo l1 m -> m <= m' -> spchain m' l2 hi -> spchain lo (l1 ++ l2) hi.
Proof.
  induction l1 as [|[a b] r IH]; cbn [spchain app]; intros l2 lo m m' hi H1 Hm H2.
  - destruct l2 as [|[a2 b2] r2]; cbn [spchain] in *; [lia|]. destruct H2 as (A & B & C). repeat split; auto; lia.
  - destruct H1 as (A & B & C). repeat split; auto. eapply IH; eauto.
Qed.

(** the error-node spans of an accounted tree are well-formed, ordered and disjoint, inside its span *)
Lemma acc_accl_chain :
  (forall t seg lo hi, Acc t seg lo hi -> Forall tok_wf seg -> spchain lo (errspans t) hi) /\
  (forall ts segs lo hi, AccL ts segs lo hi -> Forall tok_wf (concat segs) -> spchain lo (flat_map errspans ts) hi).
Proof.
  apply Acc_AccL_ind.
  - intros k Hw. inversion Hw as [|? ? [H0 H1] _]; subst. cbn. exact H1.
  - intros e d lo hi pp Hle _ _. cbn. lia.
  - intros p l _. cbn. lia.
  - intros p k ks segs lo hi _ IH Hw. rewrite errspans_node. exact (IH Hw).
  - intros t seg lo hi _ IH Hw. cbn [concat flat_map] in *. rewrite app_nil_r in *. exact (IH Hw).
  - intros t r seg segs lo hi lo2 hi2 Hr _ IH1 _ IH2 Hle Hw. cbn [concat flat_map] in *.
    apply Forall_app in Hw as [Hw1 Hw2]. exact (spchain_app _ _ _ _ _ _ (IH1 Hw1) Hle (IH2 Hw2)).
Qed.

Lemma acc_chain : forall t seg lo hi, Acc t seg lo hi -> Forall tok_wf seg -> spchain lo (errspans t) hi.
Proof. exact (proj1 acc_accl_chain). Qed.

Lemma accl_chain : forall ts segs lo hi, AccL ts segs lo hi -> Forall tok_wf (concat segs) -> spchain lo (flat_map errspans ts) hi.
Proof. exact (proj2 acc_accl_chain). Qed.

(* each token well-formed (0 <= lo <= hi) and ending before all later ones start *)
Fixpoint sorted (l : list token) : Prop :=
  match l with [] => True | k :: r => tok_wf k /\ Forall (fun k' => tk_hi k <= tk_lo k') r /\ sorted r end.
Lemma sorted_wf l : sorted l -> Forall tok_wf l.
Proof. induction l as [|k r IH]; cbn [sorted]; intros H; constructor; tauto. Qed.
Lemma sorted_app a b : sorted (a ++ b) -> sorted a /\ sorted b /\ forall x y, In x a -> In y b -> tk_hi x <= tk_lo y.
Proof.
  induction a as [|k r IH]; cbn [app sorted]; intros H.
  - repeat split; auto; intros x y [].
  - destruct H as (Hk & Hall & Hs). destruct (IH Hs) as (Ha & Hb & Hab). apply Forall_app in Hall as [H1 H2].
    split; [cbn [sorted]; split; [exact Hk|split; [exact H1|exact Ha]]|]. split; [exact Hb|].
    intros x y [<-|Hx] Hy; [rewrite Forall_forall in H2; exact (H2 y Hy)|exact (Hab x y Hx Hy)].
Qed.
Lemma sorted_span : forall d k, sorted (k :: d) ->
  tk_lo k <= tk_hi (last (k :: d) k) /\ Within (tk_lo k) (tk_hi (last (k :: d) k)) (k :: d).
Proof.
  induction d as [|k2 r IH]; intros k ([W0 W1] & Hall & Hs).
  - cbn [last]. split; [exact W1|]. constructor; [split; lia|constructor].
  - destruct (IH k2 Hs) as [A B]. inversion Hall as [|? ? Hk2 _]; subst.
    change (last (k :: k2 :: r) k) with (last (k2 :: r) k). rewrite (last_dflt (k2 :: r) k k2) by discriminate.
    split; [lia|]. constructor; [split; lia|]. eapply Within_weaken; [| |exact B]; lia.
Qed.

Section Acct.
Variable A : tables.
Variable orc : oracle.
Variable fuel : nat.
Variable w : list token.
Hypothesis Hsorted : sorted w.

Definition latok (la : option (token * nat)) : list token := match la with Some (k, _) => [k] | None => [] end.

(* [pre]: tokens accounted for by the stack; [d]: tokens dropped by the recovery in progress *)
Definition R (pre d : list token) (la : option (token * nat)) (s : pst) : Prop :=
  (pre ++ d) ++ latok la ++ toks (rest s) = w /\ StackAcc (stk s) pre /\
  match d ++ latok la ++ toks (rest s) with k :: _ => top_hi (stk s) <= tk_lo k | [] => True end.

(* the answer: the children of the root account for a contiguous part of the input; [lafin] is a
   lookahead that was pending when the tree was returned (none on validated tables) *)
Definition afin (r : result) (s : pst) : Prop :=
  match r with
  | ROk (Node p (k :: ks)) => exists pre_b segs lo hi lafin, AccL (k :: ks) segs lo hi /\
      (pre_b ++ concat segs) ++ latok lafin ++ toks (rest s) = w /\ (length (k :: ks) = length (stk s) -> pre_b = [])
  | _ => True
  end.

Lemma R_wf pre d la s : R pre d la s -> Forall tok_wf pre.
Proof.
  intros (Hw & _). pose proof (sorted_wf _ Hsorted) as H. rewrite <- Hw in H.
  apply Forall_app in H as [H _]. apply Forall_app in H as [H _]. exact H.
Qed.

Lemma unrec_afin s tok s' : afin (unrec_error A fuel s tok) s'.
Proof. pose proof (unrec_not_ok A fuel s tok) as H. destruct (unrec_error A fuel s tok); [contradiction|exact I..]. Qed.

Lemma R_push pre_b seg la s K e : (pre_b ++ seg) ++ latok la ++ toks (rest s) = w ->
  StackAcc K pre_b -> Acc (e_tree e) seg (e_lo e) (e_hi e) -> top_hi K <= e_lo e ->
  match latok la ++ toks (rest s) with k :: _ => e_hi e <= tk_lo k | [] => True end ->
  R (pre_b ++ seg) [] la (set_stk s (e :: K)).
Proof.
  intros Hw Hb Ha Hord Hn. split; [cbn [rest set_stk]; rewrite app_nil_r; exact Hw|].
  split; [apply SA_cons; assumption|exact Hn].
Qed.

(* the zero-width span given to an entry that accounts for nothing: at the lookahead, else at the end of the stack *)
Lemma empty_span la b r : match latok la ++ r with k :: _ => b <= tk_lo k | [] => True end ->
  let x := match la with Some (k, _) => tk_lo k | None => b end in
  b <= x /\ match latok la ++ r with k :: _ => x <= tk_lo k | [] => True end.
Proof.
  destruct la as [[k i]|]; cbn [latok app]; intros H.
  - (* at the lookahead *) split; [exact H|lia].
  - (* at the end of the stack *) split; [lia|exact H].
Qed.

Lemma reduce_R pre m s p : R pre [] (mtok m) s ->
  match reduce A orc p (mlo m) (stk s) with
  | (RdCont st', ev) => R pre [] (mtok m) (set_stk (logo s ev) st')
  | (RdDone (ROk (Node _ (k :: ks))), _) => exists pre_b segs lo hi, AccL (k :: ks) segs lo hi /\ pre = pre_b ++ concat segs /\
                                             (length (k :: ks) = length (stk s) -> pre_b = [])
  | _ => True
  end.
Proof.
  intros (Hw & HS & Hn). cbn [app] in Hn. rewrite app_nil_r in Hw.
  (* a panic and a failing action leave nothing to show *)
  destruct (reduce_cases A orc p (mlo m) (stk s)) as [|nt rhs Ep Hlen Hp|nt rhs e0 Ep Hlen Hp Eo|nt rhs lo hi Ep Hlen Hp Eo Esp];
    [exact I| |exact I|].
  all: rewrite <- (firstn_skipn (length rhs) (stk s)) in HS, Hn.
  all: destruct (firstn (length rhs) (stk s)) as [|e ents] eqn:Ef.
  - (* the accepting reduction, of an empty production *) exact I.
  - (* the accepting reduction *)
    destruct (map e_tree (rev (e :: ents))) as [|k0 ks] eqn:Ek; [exact I|].
    destruct (stack_pop (e :: ents) _ pre e ltac:(discriminate) HS) as (pre_b & segs & Hpre & Hb & Hk & Hord).
    rewrite Ek in Hk. exists pre_b, segs, (e_lo (last (e :: ents) e)), (e_hi e).
    split; [exact Hk|]. split; [exact Hpre|].
    intros Hl. rewrite <- Ek, <- Ef in Hl. rewrite (pops_all_skipn _ _ _ Hl) in Hb. inversion Hb. reflexivity.
  - (* no children *)
    rewrite node_span_rev in Esp. inversion Esp; subst lo hi. rewrite (firstn_nil_skipn _ _ Ef) in *.
    destruct (empty_span (mtok m) _ _ Hn) as [H1 H2]. unfold mlo. rewrite <- (app_nil_r pre).
    apply (R_push pre [] (mtok m) (log s _)); [rewrite app_nil_r; exact Hw|exact HS|cbn [e_tree e_lo e_hi rev map]..].
    + apply Acc_empty.
    + destruct (mtok m) as [[k i]|]; exact H1.
    + destruct (mtok m) as [[k i]|]; exact H2.
  - (* children *)
    rewrite node_span_rev in Esp. inversion Esp; subst lo hi.
    destruct (stack_pop (e :: ents) _ pre e ltac:(discriminate) HS) as (pre_b & segs & -> & Hb & Hk & Hord).
    apply (R_push pre_b (concat segs) (mtok m) (log s _)); [exact Hw|exact Hb|apply Acc_kids; exact Hk|exact Hord|exact Hn].
Qed.

Lemma logo_stk s ev : stk (logo s ev) = stk s.
Proof. exact (Machine.logo_stk s ev). Qed.

Lemma done_afin pre m s p r ev : R pre [] (mtok m) s ->
  reduce A orc p (mlo m) (stk s) = (RdDone r, ev) -> afin r (logo s ev).
Proof.
  intros HR E. pose proof (reduce_R pre m s p HR) as Hr. rewrite E in Hr.
  destruct r as [[k|e d lo hi|p0 [|k0 ks]]| | |]; try exact I. destruct Hr as (pre_b & segs & lo & hi & Hk & Hpre & Hall).
  exists pre_b, segs, lo, hi, (mtok m). rewrite logo_rest, logo_stk. split; [exact Hk|]. split; [|exact Hall].
  destruct HR as (Hw & _). rewrite app_nil_r in Hw. rewrite <- Hpre. exact Hw.
Qed.

Lemma rec_entry_top es err d la j st : rec_entry es err d la j st =
  let start := match firstn j st with
               | e :: _ => e_lo (last (firstn j st) e)
               | [] => match d with k :: _ => tk_lo k | [] => top_hi (skipn j st) end
               end in
  let end_ := match d with
              | k :: _ => tk_hi (last d k)
              | [] => match firstn j st with
                      | e :: _ => e_hi e
                      | [] => match la with Some (k, _) => tk_lo k | None => start end
                      end
              end in
  (es, ErrLeaf err d start end_, start, end_).
Proof. unfold rec_entry. cbv zeta. rewrite !match_rev. reflexivity. Qed.

Lemma R_rec pre d la s j err es : R pre d la s ->
  R (pre ++ d) [] la (set_stk s (rec_entry es err d la j (stk s) :: skipn j (stk s))).
Proof.
  intros HR. pose proof (R_wf _ _ _ _ HR) as Hwf. destruct HR as (Hw & HS & Hn).
  rewrite rec_entry_top. cbv zeta.
  rewrite <- (firstn_skipn j (stk s)) in HS, Hn. set (K := skipn j (stk s)) in *.
  destruct (stack_pop_span _ _ _ HS Hwf) as (pre_b & pp & -> & Hb & HP). rewrite <- (app_assoc pre_b pp d) in Hw |- *.
  destruct d as [|d1 d'].
  - (* nothing dropped *)
    destruct (firstn j (stk s)) as [|e P']; cbn [app] in Hn.
    + subst pp. destruct (empty_span la _ _ Hn) as [H1 H2].
      apply R_push; cbn [e_tree e_lo e_hi]; [exact Hw|exact Hb|apply (Acc_err err [] _ _ []); [exact H1|constructor]|lia|exact H2].
    + destruct HP as (H1 & H2 & H3).
      apply R_push; cbn [e_tree e_lo e_hi]; [exact Hw|exact Hb|apply Acc_err; [exact H2|rewrite app_nil_r; exact H3]|exact H1|exact Hn].
  - (* the dropped tokens: inside their span, after the stack, before what follows *)
    pose proof Hsorted as Hso. rewrite <- Hw in Hso.
    apply sorted_app in Hso as (Hso & _ & Hx). apply sorted_app in Hso as (_ & Hso & _). apply sorted_app in Hso as (_ & Hs_d & _).
    destruct (sorted_span d' d1 Hs_d) as [D1 D2].
    assert (D3 : match latok la ++ toks (rest s) with k :: _ => tk_hi (last (d1 :: d') d1) <= tk_lo k | [] => True end).
    { destruct (latok la ++ toks (rest s)) as [|k r]; [exact I|].
      apply Hx; [apply in_or_app; right; apply in_or_app; right; apply last_in; discriminate|left; reflexivity]. }
    destruct (firstn j (stk s)) as [|e P']; cbn [app top_hi] in Hn.
    + subst pp. apply R_push; cbn [e_tree e_lo e_hi]; [exact Hw|exact Hb|apply (Acc_err err _ _ _ []); assumption|exact Hn|exact D3].
    + destruct HP as (H1 & H2 & H3).
      apply R_push; cbn [e_tree e_lo e_hi]; [exact Hw|exact Hb| |exact H1|exact D3].
      apply Acc_err; [lia|exact (Within_join _ _ _ _ _ _ H2 Hn D1 H3 D2)].
Qed.

Lemma recovery_entry pre d la' s2 j err es : R pre d la' s2 ->
  let st := stk s2 in
  let popped := firstn j st in
  let kept := skipn j st in
  let start := match rev popped with
               | e :: _ => e_lo e
               | [] => match d with d1 :: _ => tk_lo d1 | [] => match kept with e :: _ => e_hi e | [] => 0 end end
               end in
  let end_ := match rev d with
              | dl :: _ => tk_hi dl
              | [] => match popped with
                      | e :: _ => e_hi e
                      | [] => match la' with Some (k, _) => tk_lo k | None => start end
                      end
              end in
  exists pre', R pre' [] la' (set_stk s2 ((es, ErrLeaf err d start end_, start, end_) :: kept)).
Proof.
  intros H. exists (pre ++ d). exact (R_rec pre d la' s2 j err es H).
Qed.

(* the accounting in every phase of the driver; at the end of the input nothing is left to read *)
Definition RP (ph : phase) (m : mode) (s : pst) : Prop :=
  (exists pre, R pre (dropped_in ph) (mtok m) s) /\ (m = MEof -> rest s = []).

Theorem R_invariant : invariant A orc fuel RP afin.
Proof.
  intros ph m s o [[pre HR] He] H. pose proof HR as (Hw & HS & Hn).
  destruct H; try exact I; cbn [dropped_in mtok] in *.
  - (* pull_eof *) split; [exists pre; exact HR|intros _; exact Er].
  - (* pull_tok *) rewrite Er in Hw, Hn. split; [exists pre; exact (conj Hw (conj HS Hn))|discriminate].
  - (* pull_unknown *) apply unrec_afin.
  - (* shift *) split; [|discriminate]. exists (pre ++ [k]). rewrite app_nil_r in Hw. cbn [latok app] in *.
    apply (R_push pre [k] None); cbn [shifted e_tree e_lo e_hi latok app rest log set_stk];
      [rewrite <- app_assoc; exact Hw|exact HS|apply Acc_leaf|exact Hn|].
    destruct (toks (rest s)) as [|k0 r0]; [exact I|].
    pose proof Hsorted as Hso. rewrite <- Hw in Hso. apply sorted_app in Hso as (_ & Hs2 & _).
    destruct Hs2 as (_ & Hall & _). inversion Hall; assumption.
  - (* reduce *) pose proof (dropped_in_nil ph Hph) as Hd.
    rewrite Hd in *. destruct x as [|r|st'].
    + exact I.
    + apply (answer_post (fun r => afin r (logo s ev))); [exact (done_afin pre m s p r ev HR Ered)|exact (fun _ => I)].
    + pose proof (reduce_R pre m s p HR) as Hr. rewrite Ered in Hr.
      split; [exists pre; rewrite Hd; exact Hr|]. cbn [rest set_stk]. rewrite logo_rest. exact He.
  - (* error *) apply unrec_afin.
  - (* recover *) split; [exists pre; exact HR|exact He].
  - (* break *) split; [exists pre; exact HR|exact He].
  - (* drop *) split; [|discriminate]. exists pre. cbn [latok] in Hw, Hn.
    split; [|split; [exact HS|]]; cbn [dropped_in mtok latok rest log stk app].
    + rewrite <- Hw, <- !app_assoc. reflexivity.
    + rewrite <- app_assoc. exact Hn.
  - (* resume *) split; [exists (pre ++ d); exact (R_rec pre d (mtok m) s j err es HR)|exact He].
Qed.
End Acct.

Lemma RP_init input : sorted (toks input) -> RP (toks input) Parse MNeed (init input).
Proof.
  intros Hs. split; [|discriminate]. exists []. split; [reflexivity|]. split; [constructor|].
  cbn [dropped_in app latok mtok rest init stk top_hi]. destruct (toks input) as [|k0 r0]; [exact I|]. exact (proj1 (proj1 Hs)).
Qed.

(** the children of the root account for a contiguous part of the input (all of it on validated tables, below): every
    token of it by a leaf, or by the one error node that swallowed it *)
Theorem tokens_accounted_with_spans A orc fuel input p k ks s :
  sorted (toks input) ->
  drive A orc fuel input = (ROk (Node p (k :: ks)), s) ->
  exists pre_b segs lo hi lafin, AccL (k :: ks) segs lo hi /\
    (pre_b ++ concat segs) ++ latok lafin ++ toks (rest s) = toks input /\
    (length (k :: ks) = length (stk s) -> pre_b = []).
Proof.
  intros Hs H. exact (run_invariant A orc fuel _ _ (R_invariant A orc fuel _ Hs) _ _ _ _ _ (RP_init input Hs) H
                        ltac:(discriminate) ltac:(discriminate)).
Qed.

Lemma spchain_later_starts_after : forall l lo hi a b, spchain lo l hi -> In (a, b) l -> lo <= a /\ b <= hi.
Proof.
  induction l as [|[a0 b0] r IH]; intros lo hi a b H Hin; [destruct Hin|].
  cbn [spchain] in H. destruct H as (H1 & H2 & H3). destruct Hin as [E|Hin].
  - inversion E; subst. split; [exact H1|]. apply spchain_le in H3. exact H3.
  - destruct (IH _ _ _ _ H3 Hin) as [A1 A2]. split; lia.
Qed.

(* ordered spans are pairwise disjoint for tokens of positive width: a token lies inside at most one of them *)
Lemma spchain_disjoint : forall l lo hi i j s1 s2 k, spchain lo l hi -> (i < j)%nat ->
  nth_error l i = Some s1 -> nth_error l j = Some s2 -> tk_lo k < tk_hi k ->
  within (fst s1) (snd s1) k -> within (fst s2) (snd s2) k -> False.
Proof.
  induction l as [|[a0 b0] r IH]; intros lo hi i j s1 s2 k H Hij H1 H2 Hk W1 W2; [destruct i; discriminate|].
  cbn [spchain] in H. destruct H as (A1 & A2 & A3).
  destruct i as [|i].
  - cbn in H1. inversion H1; subst s1. destruct j as [|j]; [lia|]. cbn [nth_error] in H2.
    apply nth_error_In in H2. destruct s2 as [a2 b2].
    destruct (spchain_later_starts_after _ _ _ _ _ A3 H2) as [B1 _].
    unfold within in *. cbn [fst snd] in *. lia.
  - destruct j as [|j]; [lia|]. cbn [nth_error] in H1, H2.
    exact (IH _ _ i j s1 s2 k A3 ltac:(lia) H1 H2 Hk W1 W2).
Qed.

From LV Require Import LR.RecoverySound.

Section Valid.
Variable A : tables.
Variable C : cert.
Hypothesis Hshape : shape A C = true.
Hypothesis Hexact : exact A C = true.
Hypothesis Hseo : start_eof_only A = true.
Variable orc : oracle.
Variable fuel : nat.

Notation L := (L A C).

Lemma ok_is_eof_accept m s v s' : L m s -> step A orc fuel m s = Fin (ROk v) s' ->
  m = MEof /\ s' = s /\ exists p, reduce A orc p None (stk s) = (RdDone (ROk v), None) /\
  match v with Node _ kids => length kids = length (stk s) | _ => True end.
Proof. exact (ok_is_accept A C Hshape Hexact orc fuel m s v s' (fun _ => Hseo)). Qed.
End Valid.

(** on validated tables (with `!`) the statement is about the whole input: the children of the root
    partition it exactly *)
Theorem tokens_accounted_on_validated_tables A C orc fuel w p k ks s :
  shape A C = true -> exact A C = true -> start_eof_only A = true ->
  Forall (tok_ok A) w -> sorted w ->
  drive A orc fuel (map IOk w) = (ROk (Node p (k :: ks)), s) ->
  exists segs lo hi, AccL (k :: ks) segs lo hi /\ concat segs = w /\ spchain lo (flat_map errspans (k :: ks)) hi.
Proof.
  intros Hs He Hseo Hw Hso H.
  pose proof (RP_init (map IOk w)) as HR. rewrite toks_map_ok in HR.
  (* the answer is that of the last call of [step]: the accepting reduce at the end of the input, on a
     stack that holds exactly its right-hand side *)
  destruct (run_last A orc fuel _ _ (invariant_and A orc fuel _ _ _ _ (L_invariant A C Hs He orc fuel)
              (fun ph m0 s0 o _ => R_invariant A orc fuel w Hso ph m0 s0 o)) _ _ _ _ _ (conj (LP_init A C w Hw) (HR Hso)) H ltac:(discriminate))
    as (m1 & s1 & [[HL1 _] [[pre HR1] He1]] & Hstep).
  destruct (ok_is_eof_accept A C Hs He Hseo orc fuel m1 s1 _ _ HL1 Hstep) as (-> & -> & p' & Hred & Hlen).
  pose proof (reduce_R A orc w pre MEof s1 p' HR1) as Hr. cbn [mlo mtok option_map dropped_in] in Hr, HR1. rewrite Hred in Hr.
  destruct Hr as (pre_b & segs & lo & hi & Hk & Hpre & Hall). rewrite (Hall Hlen) in Hpre.
  assert (Hc : concat segs = w).
  { destruct HR1 as (Hw1 & _). rewrite (He1 eq_refl) in Hw1. cbn [latok toks flat_map app] in Hw1. rewrite !app_nil_r in Hw1.
    rewrite <- Hw1, Hpre. reflexivity. }
  exists segs, lo, hi. split; [exact Hk|]. split; [exact Hc|].
  apply (accl_chain _ _ _ _ Hk). rewrite Hc. apply sorted_wf. exact Hso.
Qed.

(** non-vacuity: the run of LR/TokenAccount.v's example ( ( ) ) + N  on  E = E "+" T | T; T = N | "(" E ")" | ! ):
    the error node with span (0,5) accounts for the two popped tokens and the dropped one, all inside
    its span; the remaining two tokens are leaves *)
From LV Require Import LR.TokenAccount.
Example recovery_accounts_for_every_token :
  let t := fun i n => ex_tk i n in
  AccL [Node 2 [Node 3 [Node 6 [ErrLeaf (PUnrecTok (t 2%nat 2) [0%nat]) [t 2%nat 2] 0 5]]; Leaf (t 0%nat 3); Node 4 [Leaf (t 3%nat 4)]]]
       [concat [concat [concat [[t 1%nat 0; t 2%nat 1] ++ [t 2%nat 2]]]; [t 0%nat 3]; concat [[t 3%nat 4]]]] 0 9.
Proof.
  intros t. apply AccL_one. apply Acc_node.
  apply (AccL_cons _ _ _ _ 0 5 6 9); [discriminate| | |lia].
  - apply Acc_node. apply AccL_one. apply Acc_node. apply AccL_one.
    apply Acc_err; [lia|]. repeat constructor; cbn; lia.
  - apply (AccL_cons _ _ _ _ 6 7 8 9); [discriminate|exact (Acc_leaf (t 0%nat 3))| |lia].
    apply AccL_one. apply Acc_node. apply AccL_one. exact (Acc_leaf (t 3%nat 4)).
Qed.
