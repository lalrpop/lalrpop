(** How the driver depends on its budget and on the unread input.
    - Budget monotonicity, for any tables, with or without error recovery: under a larger budget every
      function of the driver, from the [accepts] simulation up to the whole drive, answers what it
      answered before, unless that was out-of-budget.
    - Locality (no recovery; used for the error position of C04): an [UnrecognizedToken] error raised
      at input position |u| depends only on the first |u|+1 tokens. *)
From Coq Require Import List BinInt Arith Lia.
From LV Require Import LR.Driver LR.Validator LR.Machine LR.ErrorPos.
Import ListNotations.

Section Budget.
Variable A : tables.
Variable orc : oracle.

Lemma accepts_mono : forall f f', f <= f' -> forall l la,
  accepts A f l la <> AFuel -> accepts A f' l la = accepts A f l la.
Proof.
  induction f as [|f IH]; intros f' Hf l la; [intros H; contradiction H; reflexivity|].
  destruct f' as [|f']; [lia|]. cbn [accepts].
  destruct l as [|top l']; [reflexivity|].
  destruct (match la with None => eof_at A top | Some t => act_at A top t end) as [a|]; [|reflexivity].
  destruct (a =? 0)%Z; [reflexivity|].
  destruct (as_reduce a) as [p|]; [|reflexivity].
  destruct (nth_error (sim_pop A) p) as [k|]; [|reflexivity].
  destruct (nth_error (sim_nt A) p) as [[nt|]|]; [|reflexivity..].
  destruct (length (top :: l') <=? k); [reflexivity|]. apply IH. lia.
Qed.

Definition sres_nofuel (x : sres) : Prop := match x with Fin RFuel _ => False | _ => True end.
Definition next_nofuel (x : next * pst) : Prop := match x with (NDone RFuel, _) => False | _ => True end.

Definition fl_nofuel (r : flres) : Prop := match r with FlFuel => False | FlDone RFuel _ => False | _ => True end.

Lemma pre_reduce_mono : forall f f', f <= f' -> forall la s,
  pre_reduce A orc f la s <> PrFuel -> pre_reduce A orc f' la s = pre_reduce A orc f la s.
Proof.
  induction f as [|f IH]; intros f' Hf la s; [intros H; contradiction H; reflexivity|].
  destruct f' as [|f']; [lia|]. rewrite !pre_reduce_S.
  destruct (tact A (top_state (stk s)) (Some (err_col A))) as [t|p| |]; [reflexivity| |reflexivity..].
  destruct (reduce A orc p la (stk s)) as [[|r0|k] ev]; [reflexivity..|]. apply IH. lia.
Qed.

Section At.
Variables f f' : nat.
Hypothesis Hf : f <= f'.

(* Every proof below has one shape: rewrite the inner call by its own monotonicity lemma, then go under the match,
   where the two sides are the same term.  The lemma's side condition holds because every body is strict in the
   inner call: had that run out of budget, so would the whole, against the hypothesis.  ([accepts_mono] and
   [pre_reduce_mono], above, are the inductions on the budget itself, hence for all f and f'.) *)

Lemma expected_go_mono l : forall n i,
  expected_go A f l i n <> EFuel -> expected_go A f' l i n = expected_go A f l i n.
Proof.
  induction n as [|n IH]; intros i; cbn [expected_go]; [reflexivity|]. intros H.
  rewrite (accepts_mono f f' Hf) by (intros E; rewrite E in H; exact (H eq_refl)).
  destruct (accepts A f l (Some i)).
  - rewrite IH; [reflexivity|]. intros E. rewrite E in H. exact (H eq_refl).
  - exact (IH _ H).
  - reflexivity.
  - reflexivity.
Qed.

Lemma unrec_error_mono s tok : unrec_error A f s tok <> RFuel -> unrec_error A f' s tok = unrec_error A f s tok.
Proof.
  intros H. unfold unrec_error, expected_tokens in *. rewrite expected_go_mono; [reflexivity|].
  intros E. rewrite E in H. exact (H eq_refl).
Qed.

Lemma next_token_mono s : next_nofuel (next_token A f s) -> next_token A f' s = next_token A f s.
Proof.
  unfold next_token. destruct (rest s) as [|[k|e] r]; [reflexivity| |reflexivity]. destruct (tk_idx k); [reflexivity|].
  intros H. rewrite unrec_error_mono; [reflexivity|]. intros E. unfold pulled in E. rewrite E in H. exact H.
Qed.

Lemma find_state_mono la : forall st j, find_state A f st j la <> FsFuel -> find_state A f' st j la = find_state A f st j la.
Proof.
  (* the test at one suffix is an [accepts] simulation *)
  assert (Hh : forall st j, fs_here A f st j la <> FsFuel -> fs_here A f' st j la = fs_here A f st j la).
  { intros st j. unfold fs_here. destruct (act_at A (top_state st) (err_col A)) as [a|]; [|reflexivity].
    destruct (as_shift a) as [es|]; [|reflexivity].
    intros H. rewrite (accepts_mono f f' Hf); [reflexivity|]. intros E. rewrite E in H. exact (H eq_refl). }
  intros st. induction st as [|e below IH]; intros j H; rewrite (find_state_eq A f) in H |- *; rewrite (find_state_eq A f').
  - rewrite Hh; [reflexivity|]. intros E. rewrite E in H. exact (H eq_refl).
  - rewrite Hh by (intros E; rewrite E in H; exact (H eq_refl)).
    destruct (fs_here A f (e :: below) j la); [reflexivity..|exact (IH _ H)].
Qed.

Lemma find_loop_mono : forall n err la d s,
  fl_nofuel (find_loop A f n err la d s) -> find_loop A f' n err la d s = find_loop A f n err la d s.
Proof.
  intros n err la d s. pattern (find_loop A f n err la d s). revert n la d s. apply (find_loop_ind' A f err).
  - intros n la d s E _. rewrite find_loop_eq, find_state_mono, E by congruence. reflexivity.
  - intros n la d s _ [].
  - intros n la d s j E _. rewrite find_loop_eq, find_state_mono, E by congruence. reflexivity.
  - intros n d s E _. rewrite find_loop_eq. cbn [option_map]. rewrite find_state_mono, E by congruence. reflexivity.
  - intros d s k i _ [].
  - intros n d s k i E IH Hx. rewrite find_loop_eq. cbn [option_map snd]. rewrite find_state_mono, E by congruence.
    rewrite next_token_mono by (destruct (next_token A f (log s (Drop (npulled s - 1)))) as [[k' i'| |r] s1]; [exact I|exact I|exact Hx]).
    destruct (next_token A f (log s (Drop (npulled s - 1)))) as [[k' i'| |r] s1];
      [exact (IH _ _ Hx)|exact (IH _ _ Hx)|reflexivity].
Qed.

Lemma error_recovery_mono la s :
  next_nofuel (error_recovery A orc f la s) -> error_recovery A orc f' la s = error_recovery A orc f la s.
Proof.
  rewrite !error_recovery_eq. intros Hx.
  rewrite unrec_error_mono by (intros E; rewrite E in Hx; destruct (negb (uses_recovery A)); exact Hx).
  destruct (negb (uses_recovery A)); [reflexivity|].
  destruct (unrec_error A f s (option_map fst la)) as [v|err| |]; [reflexivity| |reflexivity..].
  rewrite (pre_reduce_mono f f' Hf) by (intros E; rewrite E in Hx; exact Hx).
  destruct (pre_reduce A orc f _ s) as [| |r s1|s1]; [reflexivity..|].
  rewrite find_loop_mono; [reflexivity|].
  destruct (find_loop A f _ err la [] s1) as [| |r s2|j la' dr s2]; [exact I|exact Hx|exact Hx|exact I].
Qed.

Lemma after_next_mono m (g g' : next * pst) : (next_nofuel g -> g' = g) ->
  sres_nofuel (after_next m g) -> after_next m g' = after_next m g.
Proof. destruct g as [[k i| |[v|e| |]] s1]; intros H Hx; [rewrite H by exact I; reflexivity..|destruct Hx]. Qed.

Lemma step_mono_rec m s : sres_nofuel (step A orc f m s) -> step A orc f' m s = step A orc f m s.
Proof.
  destruct (mode_need_dec m) as [->|Hm].
  - rewrite !step_need. exact (after_next_mono MNeed _ _ (next_token_mono s)).
  - (* only the error entry reads the budget; at the end of the input also a shift entry *)
    rewrite !(step_phase A orc _ m s Hm). destruct (tact A (top_state (stk s)) (mla m)) as [t|p| |].
    + destruct m as [|k i|]; [congruence|intros _; reflexivity|exact (after_next_mono _ _ _ (error_recovery_mono _ s))].
    + intros _; reflexivity.
    + exact (after_next_mono _ _ _ (error_recovery_mono _ s)).
    + intros _; reflexivity.
Qed.

Lemma run_mono_rec : forall n n', n <= n' -> forall m s,
  fst (run A orc f n m s) <> RFuel -> run A orc f' n' m s = run A orc f n m s.
Proof.
  induction n as [|n IH]; intros n' Hn m s; [intros H; contradiction H; reflexivity|]. destruct n' as [|n']; [lia|]. cbn [run].
  intros H.
  rewrite step_mono_rec by (destruct (step A orc f m s) as [m1 s1|[v|e| |] s1]; [exact I..|exact (H eq_refl)]).
  destruct (step A orc f m s) as [m1 s1|r s1]; [apply IH; [lia|exact H]|reflexivity].
Qed.
End At.

Theorem drive_mono_rec f input r s' : drive A orc f input = (r, s') -> r <> RFuel ->
  forall f', f <= f' -> drive A orc f' input = (r, s').
Proof.
  unfold drive. intros H Hr f' Hf. rewrite <- H. apply (run_mono_rec f f' Hf f f' Hf). rewrite H. exact Hr.
Qed.
End Budget.

Section Loc.
Variable A : tables.
Hypothesis Hnorec : uses_recovery A = false.
Variable orc : oracle.

Lemma step_mono f m s x : step A orc f m s = x -> sres_nofuel x -> forall f', f <= f' -> step A orc f' m s = x.
Proof using Hnorec. intros <- Hx f' Hf. exact (step_mono_rec A orc f f' Hf m s Hx). Qed.

Lemma run_mono f : forall n m s r s', run A orc f n m s = (r, s') -> r <> RFuel ->
  forall f' n', f <= f' -> n <= n' -> run A orc f' n' m s = (r, s').
Proof using Hnorec.
  intros n m s r s' H Hr f' n' Hf Hn. rewrite <- H. apply (run_mono_rec A orc f f' Hf n n' Hn). rewrite H. exact Hr.
Qed.

Theorem drive_mono f input r s' : drive A orc f input = (r, s') -> r <> RFuel ->
  forall f', f <= f' -> drive A orc f' input = (r, s').
Proof. unfold drive. intros H Hr f' Hf. apply (run_mono f f MNeed _ r s' H Hr); assumption. Qed.

Definition set_rest (s : pst) (r : list item) : pst :=
  {| stk := stk s; rest := r; npulled := npulled s; last_loc := last_loc s; trace := trace s |}.
Definition sres_rest (x : sres) (r : list item) : sres :=
  match x with Cont m s => Cont m (set_rest s r) | Fin y s => Fin y (set_rest s r) end.

Variable f : nat.

(* a step looks at the unread input only to pull its head: on two inputs with a common prefix that it
   does not use up, it does the same and leaves the same states but for what is unread *)
Lemma step_local m s pre t1 t2 : rest s = pre ++ t1 -> (m = MNeed -> pre <> []) ->
  let pre' := match m with MNeed => tl pre | _ => pre end in
  step A orc f m (set_rest s (pre ++ t2)) = sres_rest (step A orc f m s) (pre' ++ t2) /\
  match step A orc f m s with
  | Cont _ s1 | Fin _ s1 => rest s1 = pre' ++ t1 /\ npulled s1 + length pre' = npulled s + length pre
  end.
Proof.
  intros Hr Hpre. destruct (mode_need_dec m) as [->|Hm].
  - destruct pre as [|i pre']; [contradiction (Hpre eq_refl); reflexivity|].
    unfold step, next_token. rewrite Hr. cbn [set_rest rest app tl length].
    destruct i as [k|e].
    + destruct (tk_idx k); (split; [reflexivity|split; [reflexivity|apply Nat.add_succ_comm]]).
    + split; [reflexivity|split; [reflexivity|apply Nat.add_succ_comm]].
  - rewrite !(step_phase A orc f m _ Hm), !error_recovery_norec by exact Hnorec. cbn [stk set_rest].
    replace (match m with MNeed => tl pre | _ => pre end) with pre by (destruct m; congruence).
    destruct (tact A (top_state (stk s)) (mla m)) as [t|p| |].
    + destruct m; (split; [reflexivity|split; [exact Hr|reflexivity]]).
    + destruct (reduce A orc p (mlo m) (stk s)) as [[|r0|st'] [ev|]]; (split; [reflexivity|split; [exact Hr|reflexivity]]).
    + split; [reflexivity|split; [exact Hr|reflexivity]].
    + split; [reflexivity|split; [exact Hr|reflexivity]].
Qed.

Lemma step_keeps m s m' s1 : m <> MNeed -> step A orc f m s = Cont m' s1 -> rest s1 = rest s /\ npulled s1 = npulled s.
Proof.
  intros Hm E. pose proof (step_local m s (rest s) [] [] (eq_sym (app_nil_r _)) ltac:(intros; contradiction)) as [_ H].
  rewrite E, app_nil_r in H. destruct H as [H1 H2]. destruct m; [contradiction|..]; (split; [exact H1|lia]).
Qed.

(* an UnrecognizedToken error names a token pulled after the driver last asked for one *)
Lemma unrectok_invariant p : invariant A orc f
  (fun ph m s => ph = Parse /\ match m with MHave _ _ => p < npulled s | _ => p <= npulled s end)
  (fun r s => forall k exp, r = RErr (PUnrecTok k exp) -> p < npulled s).
Proof.
  intros ph m s o [Eph Hp] H.
  destruct H; try discriminate Eph; cbn [npulled pulled shifted log set_stk].
  - (* pull_eof *) exact (conj Eph Hp).
  - (* pull_err *) intros _ _ _. lia.
  - (* pull_tok *) split; [exact Eph|lia].
  - (* pull_unknown *) intros _ _ _. lia.
  - (* bad *) discriminate.
  - (* shift *) split; [exact Eph|lia].
  - (* reduce *) destruct x; [discriminate| |split; [exact Eph|destruct m, ev; exact Hp]].
    destruct (reduce_done_cases A orc _ _ _ _ _ Ered) as [(v & -> & _)|[y ->]]; destruct ph, m; discriminate.
  - (* error *) pose proof (unrec_shape A f s (option_map fst (mtok m))) as Hs. intros k0 exp E. rewrite E in Hs.
    destruct m; [congruence|exact Hp|destruct Hs; discriminate].
  - (* recover *) congruence.
Qed.

Lemma run_prefix : forall n m s pre t1 t2 k exp s',
  rest s = pre ++ t1 ->
  run A orc f n m s = (RErr (PUnrecTok k exp), s') ->
  npulled s' <= npulled s + length pre ->
  exists s2', run A orc f n m (set_rest s (pre ++ t2)) = (RErr (PUnrecTok k exp), s2').
Proof.
  induction n as [|n IH]; intros m s pre t1 t2 k exp s' Hr H Hb; [discriminate|].
  assert (Hpre : m = MNeed -> pre <> []).
  { (* with the common prefix used up the run would have to read on *)
    intros -> ->. cbn [length] in Hb.
    pose proof (run_invariant A orc f _ _ (unrectok_invariant (npulled s)) _ MNeed s _ _ (conj eq_refl (le_n _)) H
                  ltac:(discriminate) ltac:(discriminate) k exp eq_refl). lia. }
  cbn [run] in *. destruct (step_local m s pre t1 t2 Hr Hpre) as [E Hst]. rewrite E.
  destruct (step A orc f m s) as [m1 s1|r1 s1]; cbn [sres_rest].
  - apply (IH m1 s1 _ t1 t2 k exp s' (proj1 Hst) H). lia.
  - inversion H; subst. eauto.
Qed.
End Loc.

(** an UnrecognizedToken error raised at position |u| is the same for every continuation of the input *)
Theorem unrecognized_token_is_local A orc f u k v v' exp s :
  uses_recovery A = false ->
  drive A orc f (map IOk (u ++ k :: v)) = (RErr (PUnrecTok k exp), s) ->
  npulled s = S (length u) ->
  exists s2, drive A orc f (map IOk (u ++ k :: v')) = (RErr (PUnrecTok k exp), s2).
Proof.
  intros Hn H Hp. unfold drive in *.
  destruct (run_prefix A Hn orc f f MNeed (init (map IOk (u ++ k :: v))) (map IOk (u ++ [k])) (map IOk v) (map IOk v') k exp s) as [s2 H2].
  - cbn. rewrite <- map_app, <- app_assoc. reflexivity.
  - exact H.
  - cbn. rewrite map_length, app_length. cbn. lia.
  - exists s2. replace (init (map IOk (u ++ k :: v'))) with (set_rest (init (map IOk (u ++ k :: v))) (map IOk (u ++ [k]) ++ map IOk v')); [exact H2|].
    unfold set_rest, init. cbn. rewrite <- map_app, <- app_assoc. reflexivity.
Qed.
