(** Where a syntax error is reported (grammars without error recovery), for ANY parse tables:
    [UnrecognizedToken] carries the most recently pulled token, unchanged, and nothing beyond it has
    been read; [UnrecognizedEof] is raised only after the whole input was read and carries the end
    location of the last token (the default location 0 for empty input); where [ExtraToken] can come from.
    Then, for validated tables: in which configuration the error is raised (Section VR). *)
From Coq Require Import List BinInt Lia.
From LV Require Import LR.Driver LR.Validator LR.Machine LR.Soundness.
Import ListNotations.

Definition last_hi (l : list token) : Z := match rev l with k :: _ => tk_hi k | [] => 0%Z end.
Lemma last_hi_snoc l k : last_hi (l ++ [k]) = tk_hi k.
Proof. unfold last_hi. rewrite rev_app_distr. reflexivity. Qed.

Section ErrorPos.
Variable A : tables.
Hypothesis Hnorec : uses_recovery A = false.
Variable orc : oracle.
Variable fuel : nat.
Variable w : list token.

(* [u]: the tokens already shifted *)
Definition K (m : mode) (s : pst) : Prop :=
  exists u v, w = u ++ pending m ++ v /\ rest s = map IOk v /\
              npulled s = length u + length (pending m) /\
              last_loc s = last_hi (u ++ pending m) /\
              (m = MEof -> v = []) /\
              (forall k i, m = MHave k i -> tk_idx k = Some i).

(* an expected list: distinct terminal indices below the number of named terminals (hence never the
   error pseudo-terminal, whose column is tn_names) *)
Definition exp_ok (exp : list nat) : Prop :=
  NoDup exp /\ forall x, In x exp -> x < tn_names A.

Definition fin_ok (r : result) (s : pst) : Prop :=
  match r with
  | RErr (PUnrecTok k exp) => (exists u v, w = u ++ k :: v /\ npulled s = S (length u)) /\ exp_ok exp
  | RErr (PUnrecEof loc exp) => (npulled s = length w /\ loc = last_hi w) /\ exp_ok exp
  | RErr (PExtra k) => exists u v i p, w = u ++ k :: v /\ tk_idx k = Some i /\
                        tact A (top_state (stk s)) (Some i) = AReduce p /\ p = start_prod A
  | _ => True
  end.

Lemma unrec_shape s tok :
  match unrec_error A fuel s tok with
  | RErr (PUnrecTok k exp) => tok = Some k /\ exp_ok exp
  | RErr (PUnrecEof loc exp) => (tok = None /\ loc = last_loc s) /\ exp_ok exp
  | RErr _ => False
  | ROk _ => False
  | _ => True
  end.
Proof.
  unfold unrec_error, expected_tokens.
  pose proof (expected_go_spec A fuel (states_of (stk s)) (tn_names A) 0) as Hs.
  destruct (expected_go A fuel (states_of (stk s)) 0 (tn_names A)) as [L| |]; auto. destruct Hs as [-> _].
  assert (He : exp_ok (filter (acc_true A fuel (states_of (stk s))) (List.seq 0 (tn_names A)))).
  { split; [apply NoDup_filter, seq_NoDup|]. intros x Hx. apply filter_In in Hx as [Hx _]. apply in_seq in Hx. lia. }
  destruct tok; auto.
Qed.

(* an error report is a good answer if it is raised in the right place *)
Lemma unrec_fin_ok s tok s1 :
  match tok with
  | Some k => exists u v, w = u ++ k :: v /\ npulled s1 = S (length u)
  | None => npulled s1 = length w /\ last_loc s = last_hi w
  end -> fin_ok (unrec_error A fuel s tok) s1.
Proof.
  intros H. pose proof (unrec_shape s tok) as Hu.
  destruct (unrec_error A fuel s tok) as [t|e| |]; [exact I| |exact I..].
  destruct e as [k' exp|loc exp|k'|e|loc]; [| |contradiction|exact I..].
  - (* UnrecognizedToken *) destruct Hu as [-> He]. exact (conj H He).
  - (* UnrecognizedEof *) destruct Hu as [[-> ->] He]. exact (conj H He).
Qed.

Theorem K_invariant : invariant A orc fuel (fun ph m s => ph = Parse /\ K m s) fin_ok.
Proof.
  intros ph m s o [Eph HK] H. pose proof HK as (u & v & Hw & Hv & Hn & Hl & He & Hi).
  destruct H; try discriminate Eph; cbn [pending app length] in *.
  - (* pull_eof *) split; [exact Eph|]. exists u, v. rewrite Er in Hv. destruct v; [|discriminate]. repeat split; auto; discriminate.
  - (* pull_err *) rewrite Er in Hv. destruct v; discriminate.
  - (* pull_tok *) split; [exact Eph|]. rewrite Er in Hv. destruct v as [|k' v]; [discriminate|]. injection Hv as <- Hv.
    exists u, v. cbn [pulled rest npulled last_loc pending app length]. rewrite last_hi_snoc.
    repeat split; auto; [lia|discriminate|intros ? ? [= <- <-]; exact Ei].
  - (* pull_unknown *) rewrite Er in Hv. destruct v as [|k' v]; [discriminate|]. injection Hv as <- Hv.
    apply unrec_fin_ok. exists u, v. cbn. split; [exact Hw|lia].
  - (* bad *) exact I.
  - (* shift *) split; [reflexivity|]. exists (u ++ [k]), v. rewrite <- app_assoc, app_length, app_nil_r. cbn.
    repeat split; auto; [lia|discriminate..].
  - (* reduce *) subst ph. destruct x as [|r|st'].
    + exact I.
    + destruct (reduce_done_cases A orc _ _ _ _ _ Ered) as [(t & -> & ->)|(e & ->)].
      * (* accept: with a token in hand the answer is ExtraToken *) destruct m as [|k i|]; [exact I| |exact I].
        exists u, v, i, (start_prod A). rewrite logo_stk. repeat split; auto.
      * destruct m; exact I.
    + (* [K] does not look at the stack or the trace *) split; [reflexivity|]. destruct ev; exact HK.
  - (* error *) apply unrec_fin_ok. destruct m as [|k i|]; [congruence| |]; cbn [mtok option_map fst].
    + exists u, v. cbn in *. split; [exact Hw|lia].
    + rewrite (He eq_refl) in *. cbn in *. rewrite !app_nil_r in *. rewrite Hw. split; [lia|exact Hl].
  - (* recover *) congruence.
Qed.

Lemma K_init : K MNeed (init (map IOk w)).
Proof. exists [], w. simpl. repeat split; auto; discriminate. Qed.
End ErrorPos.

(** The error token is the input token at the position reached, with its own index, id and span;
    exactly the tokens up to and including it have been pulled. *)
Theorem unrecognized_token_position A orc fuel w k exp s :
  uses_recovery A = false ->
  drive A orc fuel (map IOk w) = (RErr (PUnrecTok k exp), s) ->
  (exists u v, w = u ++ k :: v /\ npulled s = S (length u)) /\ exp_ok A exp.
Proof.
  intros Hn H. exact (run_invariant A orc fuel _ _ (K_invariant A Hn orc fuel w) _ _ _ _ _ (conj eq_refl (K_init w)) H
                        ltac:(discriminate) ltac:(discriminate)).
Qed.

Theorem unrecognized_eof_position A orc fuel w loc exp s :
  uses_recovery A = false ->
  drive A orc fuel (map IOk w) = (RErr (PUnrecEof loc exp), s) ->
  (npulled s = length w /\ loc = last_hi w) /\ exp_ok A exp.
Proof.
  intros Hn H. exact (run_invariant A orc fuel _ _ (K_invariant A Hn orc fuel w) _ _ _ _ _ (conj eq_refl (K_init w)) H
                        ltac:(discriminate) ltac:(discriminate)).
Qed.

(** ExtraToken can only come from reducing the start production on a real lookahead, which the
    validator's [start_eof_only] condition excludes for every in-range state and terminal. *)
Theorem extra_token_only_from_start_reduce A orc fuel w k s :
  uses_recovery A = false ->
  drive A orc fuel (map IOk w) = (RErr (PExtra k), s) ->
  In k w /\ exists i, tk_idx k = Some i /\ tact A (top_state (stk s)) (Some i) = AReduce (start_prod A).
Proof.
  intros Hn H.
  destruct (run_invariant A orc fuel _ _ (K_invariant A Hn orc fuel w) _ _ _ _ _ (conj eq_refl (K_init w)) H
              ltac:(discriminate) ltac:(discriminate)) as (u & v & i & p & -> & Hi & Ht & ->).
  split; [apply in_or_app; right; left; reflexivity|eauto].
Qed.

(** The configuration in which a syntax error is raised (validated tables, no recovery, an input
    without stream errors): the stack still satisfies the invariant of LR/Soundness.v, it holds
    exactly the input before the error token, and the expected list is the one computed on it.
    The viable-prefix statements of C04/C05 and the exactness of the expected list read this off. *)
From LV Require Import LR.Safety LR.ValidatorSpec.

Section VR.
Variable A : tables.
Variable C : cert.
Hypothesis Hshape : shape A C = true.
Hypothesis Hexact : exact A C = true.
Hypothesis Hnorec : uses_recovery A = false.
Variable orc : oracle.
Variable fuel : nat.
Variable w : list token.

Definition J (m : mode) (s : pst) : Prop := Inv A C w m s /\ K w m s.

Definition err_at (u : list token) (exp : list nat) (s : pst) : Prop :=
  (Linked A (core C) (stk s) /\ Forall (fun e => pure (e_tree e)) (stk s)) /\
  yields (stk s) = u /\ expected_tokens A fuel (stk s) = EList exp.

Definition finJ (r : result) (s : pst) : Prop :=
  match r with
  | RErr (PUnrecTok k exp) => exists u v, w = u ++ k :: v /\ npulled s = S (length u) /\ err_at u exp s
  | RErr (PUnrecEof _ exp) => err_at w exp s
  | _ => True
  end.

(* [K] names the tokens shifted so far; under [Inv] they are what the stack holds *)
Lemma J_yields m s : J m s -> exists v, w = yields (stk s) ++ pending m ++ v /\ rest s = map IOk v /\
  npulled s = length (yields (stk s)) + length (pending m).
Proof.
  intros [(_ & _ & Hy & _) (u & v & Hw & Hr & Hn & _)]. exists v.
  rewrite Hr, toks_map_ok, Hw in Hy.
  rewrite !app_assoc in Hy. apply app_inv_tail, app_inv_tail in Hy. subst u. auto.
Qed.

Lemma unrec_finJ m s s1 tok : J m s -> stk s1 = stk s ->
  match tok with
  | Some k => exists v, w = yields (stk s) ++ k :: v /\ npulled s1 = S (length (yields (stk s)))
  | None => w = yields (stk s)
  end -> finJ (unrec_error A fuel s1 tok) s1.
Proof.
  intros [(HL & Hpu & _) _] Hs H. unfold unrec_error. rewrite Hs.
  destruct (expected_tokens A fuel (stk s)) eqn:E; [|exact I..].
  destruct tok as [k|]; cbn; unfold err_at; rewrite Hs.
  - destruct H as (v & Hw & Hn). exists (yields (stk s)), v. auto.
  - auto.
Qed.

Theorem J_invariant : invariant A orc fuel (fun ph m s => ph = Parse /\ J m s) finJ.
Proof.
  intros ph m s o [Eph HJ] H. pose proof HJ as [HI HK]. destruct (J_yields m s HJ) as (v & Hw & Hr & Hn).
  pose proof (Inv_invariant A C Hshape Hexact Hnorec orc fuel w ph m s o (conj Eph HI) H) as H1.
  pose proof (K_invariant A Hnorec orc fuel w ph m s o (conj Eph HK) H) as H2.
  destruct H; try discriminate Eph; try exact (conj (proj1 H1) (conj (proj2 H1) (proj2 H2))).
  - (* pull_err *) rewrite Er in Hr. destruct v; discriminate.
  - (* pull_unknown *) rewrite Er in Hr. destruct v as [|k' v]; [discriminate|]. injection Hr as <- _.
    apply (unrec_finJ MNeed s); [exact HJ|reflexivity|]. exists v. cbn in *. split; [exact Hw|lia].
  - (* bad *) exact I.
  - (* reduce *) subst ph. destruct x as [|r|st']; [exact I| |exact (conj (proj1 H1) (conj (proj2 H1) (proj2 H2)))].
    destruct (reduce_done_cases A orc _ _ _ _ _ Ered) as [(t & -> & _)|(e & ->)]; destruct m; exact I.
  - (* error *) apply (unrec_finJ m s); [exact HJ|reflexivity|]. destruct HI as (_ & _ & _ & _ & _ & Hm').
    destruct m as [|k i|]; [congruence| |]; cbn in *.
    + exists v. split; [exact Hw|lia].
    + rewrite Hm' in Hr. destruct v; [|discriminate]. rewrite app_nil_r in Hw. exact Hw.
Qed.

Lemma run_J r s : Forall (fun k => match tk_idx k with Some t => t < tn_names A | None => True end) w ->
  drive A orc fuel (map IOk w) = (r, s) -> finJ r s.
Proof.
  intros Hw H. destruct r as [v|e| |]; [exact I| |exact I..].
  refine (run_invariant A orc fuel _ _ J_invariant _ _ _ _ _ _ H _ _); try discriminate.
  split; [reflexivity|]. split; [|apply K_init].
  repeat split; cbn; auto; [rewrite toks_map_ok; reflexivity|apply Forall_map; exact Hw].
Qed.
End VR.
