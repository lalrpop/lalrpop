(** Panic freedom with error recovery: on validated tables the driver never reaches a panic site,
    whatever the input, also inside Parser::error_recovery -- the reductions under the error
    lookahead, the scan for a recovery state (table lookups, the accepts simulation on the candidate
    stack).  The last two sites of error_recovery, the lookup of the error action on the kept stack and
    "cannot find token at EOF", are excluded for any tables where the transitions are read off the
    functions ([Machine.error_recovery_arrives]: the scan found a shift; at the end of the input the
    second loop does not pull). *)
From Coq Require Import List Lia.
From LV Require Import LR.Driver LR.Validator LR.Machine LR.Safety LR.ValidatorSpec LR.RecoverySound LR.NoPanic.

Section NPR.
Variable A : tables.
Variable C : cert.
Hypothesis Hshape : shape A C = true.
Hypothesis Hexact : exact A C = true.
Variable orc : oracle.
Variable fuel : nat.

Notation core := (core C).
Notation edge := (edge A core).
Notation Linked := (Linked A core).
Notation SLinked := (SLinked A C).

Notation L := (L A C).
Notation item_ok := (RecoverySound.item_ok A).

Definition np (r : result) : Prop := r <> RPanic.

Lemma slinked_push st es X : Linked st -> edge (top_state st) X es -> SLinked (es :: states_of st).
Proof.
  intros HL He. pose proof (slinked_of_linked A C st HL) as HS.
  destruct st as [|e below]; cbn in *.
  - split; [eauto|reflexivity].
  - split; [eauto|exact HS].
Qed.

(* the candidate stack of the scan for a recovery state: the error shift pushed on a suffix *)
Lemma shift_err_slinked st a es : uses_recovery A = true -> Linked st ->
  act_at A (top_state st) (err_col A) = Some a -> as_shift a = Some es -> SLinked (es :: states_of st).
Proof.
  intros Hu HL Ea Es. apply (slinked_push st es (Tm (err_col A)) HL). apply e_shift; [exact (err_col_lt A C Hshape Hu)|].
  unfold tact. rewrite Ea. unfold decode. rewrite Es. reflexivity.
Qed.

Lemma fs_here_np f la st j : la_ok A la -> uses_recovery A = true -> Linked st -> fs_here A f st j la <> FsPanic.
Proof.
  intros Hla Hu HL. unfold fs_here.
  destruct (act_some A C Hshape _ (err_col A) (linked_top_lt A C Hshape _ HL) (err_col_lt A C Hshape Hu)) as [a Ea]. rewrite Ea.
  destruct (as_shift a) as [es|] eqn:Es; [|discriminate].
  pose proof (accepts_no_panic A C Hshape Hexact f _ la (shift_err_slinked st a es Hu HL Ea Es) Hla) as Hacc.
  destruct (accepts A f (es :: states_of st) la); congruence.
Qed.

Lemma find_state_np f la : la_ok A la -> uses_recovery A = true -> forall st j, Linked st ->
  match find_state A f st j la with
  | FsPanic => False
  | FsFound j' => exists d, j' = j + d /\ d <= length st /\
                   exists a es, act_at A (top_state (skipn d st)) (err_col A) = Some a /\ as_shift a = Some es
  | _ => True
  end.
Proof.
  intros Hla Hu st j HL. destruct (find_state A f st j la) as [| |j'|] eqn:E.
  - destruct (find_state_here A f la st j _ E ltac:(discriminate)) as (d & Hd & Hh).
    exact (fs_here_np f la _ _ Hla Hu (linked_skipn A core d st HL) Hh).
  - exact I.
  - destruct (find_state_true A f la st j j' E) as (d & -> & Hd & a & es & Ea & Es & _). exists d. eauto 6.
  - exact I.
Qed.

Definition la_cond (la : option (token * nat)) : Prop := forall k i, la = Some (k, i) -> tk_idx k = Some i /\ i < tn_term A.

Lemma la_cond_ok la : la_cond la -> la_ok A (option_map snd la).
Proof. intros H. destruct la as [[k i]|]; cbn; [exact (proj2 (H k i eq_refl))|exact I]. Qed.

Lemma L_la_cond m s : L m s -> la_cond (mtok m).
Proof. intros (_ & _ & H) k0 i0 E. destruct m; inversion E; subst; exact H. Qed.

Lemma la_cond_L la s : Linked (stk s) -> Forall item_ok (rest s) -> la_cond la -> L (mode_of la) s.
Proof.
  intros HL Hok Hla. split; [exact HL|]. split; [exact Hok|]. destruct la as [[k i]|]; [exact (Hla k i eq_refl)|exact I].
Qed.

(* for any oracle, not the section's: [find_loop_np] is about a function that takes none *)
Lemma L_safe orc' ph m s o : LP A C ph m s -> mstep A orc' fuel ph m s o ->
  match o with Next _ _ _ => True | Stop r _ => np r end.
Proof.
  intros HP H. pose proof (LP_col A C Hshape ph m s HP) as Hcol. destruct HP as [(HL & Hok & Hm') Hu].
  destruct H; try exact I; try discriminate.
  - (* pull_unknown *) apply (unrec_no_panic A C Hshape Hexact). exact HL.
  - (* bad *) pose proof (tact_ok A C Hshape (stk s) _ HL Hcol) as Hb. rewrite Et in Hb. destruct Hb.
  - (* reduce *) pose proof (reduce_facts A C Hshape Hexact orc' (stk s) _ p (mlo m) HL Hcol Et) as Hred. rewrite Ered in Hred.
    inversion Hred; subst x; [destruct ph, m; discriminate..|exact I].
  - (* error *) apply (unrec_no_panic A C Hshape Hexact). exact HL.
  - (* find_panic *) pose proof (find_state_np fuel (mla m) (L_la_ok A C m s (conj HL (conj Hok Hm'))) Hu (stk s) 0 HL) as Hfs.
    rewrite Ef in Hfs. destruct Hfs.
Qed.

Lemma find_loop_np : uses_recovery A = true -> forall n err la dropped s, Linked (stk s) -> Forall item_ok (rest s) -> la_cond la ->
  match find_loop A fuel n err la dropped s with
  | FlPanic => False
  | FlDone r _ => np r
  | FlFound j la' _ s1 => (la = None -> la' = None) /\
        exists a es, act_at A (top_state (skipn j (stk s1))) (err_col A) = Some a /\ as_shift a = Some es
  | FlFuel => True
  end.
Proof.
  (* the loop is a path of transitions from (Find err dropped, la, s), along which no panic is answered; the transitions
     are indexed by an oracle, which the loop does not call: any will do *)
  intros Hu n err la dropped s HL Hok Hla. set (orc0 := (fun _ _ => None) : oracle).
  pose proof (find_loop_arrives A orc0 fuel err _ _ _ n dropped la s (ar_here A orc0 fuel (Find err dropped) (mode_of la) s)) as Ha.
  pose proof (fun o Hx => arrives_invariant A orc0 fuel _ _ (invariant_post A orc0 fuel _ _ (fun r _ => np r)
                (L_invariant A C Hshape Hexact orc0 fuel) (L_safe orc0)) (Find err dropped) (mode_of la) s o Hx
                (conj (la_cond_L la s HL Hok Hla) Hu)) as Hinv.
  destruct (find_loop A fuel n err la dropped s) as [| |r s1|j la' d' s1] eqn:E.
  - destruct (Hinv _ Ha) as [[_ Hn]|[[[=] _]|(_ & _ & s'' & _ & Hn)]]; exact (Hn eq_refl).
  - exact I.
  - destruct (Hinv _ Ha) as [[_ Hn]|[[-> _]|(_ & _ & s'' & _ & Hn)]]; [exact Hn|discriminate|destruct (Hn eq_refl)].
  - destruct Ha as [_ Hfs]. split.
    + intros ->. exact (find_loop_eof A fuel _ _ _ _ _ _ _ _ E).
    + destruct (find_state_true A fuel _ _ _ _ Hfs) as (d0 & -> & _ & a & es & Ea & Es & _). exists a, es. auto.
Qed.

Theorem no_panic_with_recovery w r s :
  Forall (tok_ok A) w -> drive A orc fuel (map IOk w) = (r, s) -> r <> RPanic.
Proof.
  intros Hw H.
  refine (run_safe A orc fuel _ _ (invariant_post A orc fuel _ _ (fun r _ => np r)
            (L_invariant A C Hshape Hexact orc fuel) (L_safe orc)) _ _ _ _ _ _ _ H).
  - intros s0 [_ Hn]. exact (Hn eq_refl).
  - exact (LP_init A C w Hw).
Qed.

(* in particular for tokens named in __TERMINAL, which is how tables without recovery are used *)
Corollary no_panic w r s :
  Forall (fun k => match tk_idx k with Some t => t < tn_names A | None => True end) w ->
  drive A orc fuel (map IOk w) = (r, s) -> r <> RPanic.
Proof.
  intros Hw. apply no_panic_with_recovery. eapply Forall_impl; [|exact Hw]. intros k. unfold tok_ok.
  pose proof (names_le A C Hshape). destruct (tk_idx k); [lia|auto].
Qed.
End NPR.
