(** From the boolean validator to propositions: [shape] as a record, [exact] as the hypotheses of LR/Safety.v,
    [start_eof_only] as [not_start_on_token].  ([complete], [terminates] and [productive] are read where they
    are used: Completeness.v, Termination.v, Viable.v.) *)
From Coq Require Import List Bool Arith Lia.
From LV Require Import LR.Driver LR.Validator LR.Safety.

Section Spec.
Variable A : tables.
Variable C : cert.

Definition core (s p d : nat) : Prop := has_core C s p d = true.

Lemma find_some_in {X} (f : X -> bool) l x : find f l = Some x -> In x l /\ f x = true.
Proof. apply find_some. Qed.

Lemma core_in s p d : core s p d ->
  exists it, In it (items_of C s) /\ i_prod it = p /\ i_dot it = d.
Proof.
  unfold core, has_core, find_item. destruct (find _ _) as [it|] eqn:Hf; [|discriminate].
  intros _. apply find_some in Hf as [Hin Hb]. apply andb_true_iff in Hb as [H1 H2].
  apply Nat.eqb_eq in H1, H2. eauto.
Qed.

Lemma in_core s it : In it (items_of C s) -> core s (i_prod it) (i_dot it).
Proof.
  intros Hin. unfold core, has_core, find_item.
  destruct (find _ _) as [it'|] eqn:Hf; [reflexivity|].
  exfalso. eapply find_none in Hf; eauto. rewrite !Nat.eqb_refl in Hf. discriminate.
Qed.

Lemma seq_in n x : In x (seq n) <-> x < n.
Proof. unfold seq. rewrite in_seq. lia. Qed.

Hypothesis Hshape : shape A C = true.
Hypothesis Hexact : exact A C = true.

(* the conjunct of [shape] about one production, as it is written there: [prod_spec] applies by conversion *)
Definition prod_shape (p : nat) : bool :=
  (lhs A p <? n_nt A) && forallb (sym_ok A) (rhs A p) &&
  (match nth p (sim_nt A) None with
   | None => p =? start_prod A
   | Some n => negb (p =? start_prod A) && (n =? lhs A p) && (nth p (sim_pop A) 0 =? length (rhs A p))
   end) &&
  negb (existsb (sym_eqb (Nt (start_nt A))) (rhs A p)) &&
  (if lhs A p =? start_nt A then p =? start_prod A else true).

Record prod_ok (p : nat) : Prop := {
  po_lhs : lhs A p < n_nt A;
  po_rhs : forall x, In x (rhs A p) -> sym_ok A x = true;
  po_sim : match nth p (sim_nt A) None with
           | None => p = start_prod A
           | Some n => p <> start_prod A /\ n = lhs A p /\ nth p (sim_pop A) 0 = length (rhs A p)
           end;
  po_fresh : ~ In (Nt (start_nt A)) (rhs A p);
  po_unique : lhs A p = start_nt A -> p = start_prod A
}.

Record shape_ok : Prop := {
  sh_states : 0 < n_states A;
  sh_action : length (action A) = n_states A * tn_term A;
  sh_names : tn_names A = tn_term A - (if uses_recovery A then 1 else 0);
  sh_err_col : uses_recovery A = true -> 0 < tn_term A;
  sh_items : length (c_items C) = n_states A;
  sh_cert : length (c_nullable C) = n_nt A /\ length (c_first C) = n_nt A /\ length (c_prank C) = n_nt A;
  sh_start : start_prod A < n_prods A;
  sh_sim_pop : length (sim_pop A) = n_prods A;
  sh_sim_nt : length (sim_nt A) = n_prods A;
  sh_goto_rows : forall row, In row (goto_tbl A) -> length row = n_states A /\ forall s', In s' row -> s' < n_states A;
  sh_act : forall s a, s < n_states A -> In a (all_la A) -> act_ok A s a = true;
  sh_prod : forall p, p < n_prods A -> prod_ok p;
  sh_item : forall s it, s < n_states A -> In it (items_of C s) ->
            i_prod it < n_prods A /\ i_dot it <= length (rhs A (i_prod it))
}.

Lemma sym_eqb_eq x y : sym_eqb x y = true -> x = y.
Proof. destruct x, y; simpl; intros H; try discriminate; apply Nat.eqb_eq in H; congruence. Qed.
Lemma sym_eqb_refl x : sym_eqb x x = true.
Proof. destruct x; simpl; apply Nat.eqb_refl. Qed.

Lemma forallb_seq (f : nat -> bool) n : forallb f (seq n) = true -> forall x, x < n -> f x = true.
Proof. intros H x Hx. rewrite forallb_forall in H. apply H, seq_in, Hx. Qed.

Lemma prod_spec p : prod_shape p = true -> prod_ok p.
Proof.
  unfold prod_shape. intros H.
  apply andb_prop in H as [H H5]. apply andb_prop in H as [H H4]. apply andb_prop in H as [H H3].
  apply andb_prop in H as [H1 H2]. constructor.
  - apply Nat.ltb_lt, H1.
  - apply forallb_forall, H2.
  - destruct (nth p (sim_nt A) None) as [n|]; [|apply Nat.eqb_eq, H3].
    apply andb_prop in H3 as [H3 Hc]. apply andb_prop in H3 as [Ha Hb].
    apply negb_true_iff, Nat.eqb_neq in Ha. apply Nat.eqb_eq in Hb, Hc. auto.
  - intros Hin. apply negb_true_iff in H4. rewrite (proj2 (existsb_exists _ _)) in H4; [discriminate|].
    exists (Nt (start_nt A)). split; [exact Hin|apply sym_eqb_refl].
  - intros Hl. rewrite Hl, Nat.eqb_refl in H5. apply Nat.eqb_eq, H5.
Qed.

(* the sixteen conjuncts of [shape] are split once; each field finds its own *)
Lemma shape_spec : shape_ok.
Proof.
  pose proof Hshape as H. unfold shape in H. repeat (apply andb_prop in H as [H ?]).
  constructor.
  - apply Nat.ltb_lt; assumption.
  - apply Nat.eqb_eq; assumption.
  - apply Nat.eqb_eq; assumption.
  - intros Hu. rewrite Hu in *. apply Nat.ltb_lt; assumption.
  - apply Nat.eqb_eq; assumption.
  - repeat split; apply Nat.eqb_eq; assumption.
  - apply Nat.ltb_lt; assumption.
  - apply Nat.eqb_eq; assumption.
  - apply Nat.eqb_eq; assumption.
  - intros row Hr. split.
    + apply Nat.eqb_eq. revert row Hr. apply forallb_forall. assumption.
    + intros s' Hs'. apply Nat.ltb_lt. revert s' Hs'. apply forallb_forall. revert row Hr. apply forallb_forall. assumption.
  - intros s a Hs. apply forallb_forall. revert s Hs. apply forallb_seq. assumption.
  - intros p Hp. apply prod_spec. revert p Hp. apply forallb_seq. assumption.
  - intros s it Hs Hin.
    assert (Hb : (i_prod it <? n_prods A) && (i_dot it <=? length (rhs A (i_prod it))) = true).
    { revert it Hin. apply forallb_forall. revert s Hs. apply forallb_seq. assumption. }
    apply andb_prop in Hb as [Hb1 Hb2]. split; [apply Nat.ltb_lt, Hb1|apply Nat.leb_le, Hb2].
Qed.

(* the tables of [__simulate_reduce] agree with the productions *)
Lemma sim_spec p : p < n_prods A ->
  nth_error (sim_nt A) p = Some (if p =? start_prod A then None else Some (lhs A p)) /\
  exists k, nth_error (sim_pop A) p = Some k /\ (p <> start_prod A -> k = length (rhs A p)).
Proof.
  intros Hp. pose proof (po_sim p (sh_prod shape_spec p Hp)) as H.
  rewrite (nth_error_nth' (sim_nt A) None), (nth_error_nth' (sim_pop A) 0)
    by (rewrite ?(sh_sim_nt shape_spec), ?(sh_sim_pop shape_spec); exact Hp).
  destruct (nth p (sim_nt A) None) as [n|].
  - destruct H as (Hne & -> & Hk). apply Nat.eqb_neq in Hne. rewrite Hne. eauto.
  - rewrite H, Nat.eqb_refl. split; [reflexivity|]. eexists. split; [reflexivity|]. congruence.
Qed.

Lemma items_state s it : In it (items_of C s) -> s < n_states A.
Proof.
  intros Hin. destruct (Nat.lt_ge_cases s (n_states A)) as [|Hge]; [assumption|].
  unfold items_of in Hin. rewrite nth_overflow in Hin by (rewrite (sh_items shape_spec); exact Hge). destruct Hin.
Qed.

Lemma core_state s p d : core s p d -> s < n_states A.
Proof. intros H. apply core_in in H as (it & Hin & _). eapply items_state; eauto. Qed.

Lemma core_lt s p d : core s p d -> p < length (prods A).
Proof. intros H. apply core_in in H as (it & Hin & <- & _). exact (proj1 (sh_item shape_spec s it (items_state s it Hin) Hin)). Qed.

Lemma exact_state s : s < n_states A ->
  edges_ok A C s = true /\ closure_ok A C s = true /\ reduces_ok A C s = true.
Proof.
  intros Hs. pose proof (forallb_seq _ _ Hexact s Hs) as H.
  apply andb_prop in H as [H H3]. apply andb_prop in H as [H1 H2]. auto.
Qed.

Lemma tact_state s a x : tact A s a = x -> x <> ABad -> s < n_states A.
Proof.
  intros Ht Hx. unfold tact in Ht.
  destruct a as [t|].
  - unfold act_at in Ht. destruct (nth_error (action A) (s * tn_term A + t)) eqn:Hnth; [|simpl in Ht; subst; congruence].
    assert (Hl : s * tn_term A + t < length (action A)) by (apply nth_error_Some; congruence).
    rewrite (sh_action shape_spec) in Hl. nia.
  - unfold eof_at in Ht. destruct (nth_error (eof_action A) s) eqn:Hnth; [|simpl in Ht; subst; congruence].
    apply nth_error_Some. unfold n_states. congruence.
Qed.

Lemma not_start_on_token s i p : start_eof_only A = true -> i < tn_term A -> tact A s (Some i) = AReduce p -> p <> start_prod A.
Proof.
  intros Hseo Hi Ht ->. assert (Hs : s < n_states A) by (apply (tact_state s _ _ Ht); discriminate).
  unfold start_eof_only in Hseo. rewrite forallb_forall in Hseo.
  specialize (Hseo _ (proj2 (seq_in _ _) Hs)). rewrite forallb_forall in Hseo.
  specialize (Hseo i (proj2 (seq_in _ _) Hi)). rewrite Ht, Nat.eqb_refl in Hseo. discriminate.
Qed.

Lemma expects_spec s X : expects A C s X = true <->
  exists p d, core s p d /\ nth_error (rhs A p) d = Some X.
Proof.
  unfold expects. rewrite existsb_exists. split.
  - intros (it & Hin & Hb). destruct (nth_error _ _) as [Y|] eqn:Hn; [|discriminate].
    apply sym_eqb_eq in Hb. subst Y. exists (i_prod it), (i_dot it). split; [apply in_core; auto|auto].
  - intros (p & d & Hc & Hn). apply core_in in Hc as (it & Hin & <- & <-).
    exists it. split; [auto|]. rewrite Hn. apply sym_eqb_refl.
Qed.

Lemma kernel_ok_spec s X s' : kernel_ok A C s X s' = true ->
  s' <> 0 /\ forall p d', core s' p d' -> 0 < d' ->
    exists d, d' = S d /\ nth_error (rhs A p) d = Some X /\ core s p d.
Proof.
  unfold kernel_ok. intros H. apply andb_true_iff in H as [H0 H].
  split. { apply negb_true_iff, Nat.eqb_neq in H0. exact H0. }
  intros p d' Hc Hd. apply core_in in Hc as (it & Hin & <- & <-).
  rewrite forallb_forall in H. specialize (H it Hin).
  destruct (i_dot it) as [|d]; [lia|]. exists d. split; [reflexivity|].
  destruct (nth_error _ _) as [Y|] eqn:Hn; [|discriminate].
  apply andb_true_iff in H as [H1 H2]. apply sym_eqb_eq in H1. subst Y. auto.
Qed.

(* a shift is on a terminal that some item of the state expects, a goto that is taken likewise; the
   target's kernel items come from the source *)
Lemma edges_spec s : s < n_states A ->
  (forall x s', x < tn_term A -> tact A s (Some x) = AShift s' ->
     expects A C s (Tm x) = true /\ kernel_ok A C s (Tm x) s' = true) /\
  (forall B, B < n_nt A -> expects A C s (Nt B) = true -> kernel_ok A C s (Nt B) (goto_at A s B) = true).
Proof.
  intros Hs. destruct (exact_state s Hs) as (He & _ & _). apply andb_prop in He as [H1 H2]. split.
  - intros x s' Hx Ha. pose proof (forallb_seq _ _ H1 x Hx) as H. cbn beta in H. rewrite Ha in H. apply andb_prop, H.
  - intros B HB Hex. pose proof (forallb_seq _ _ H2 B HB) as H. cbn beta in H. rewrite Hex in H. exact H.
Qed.

Notation edge := (edge A core).

Lemma edge_kernel s X s' : edge s X s' -> kernel_ok A C s X s' = true.
Proof.
  intros He. destruct He as [s x s' Hx Ha|s B p d Hc Hn].
  - assert (Hs : s < n_states A).
    { eapply (tact_state s (Some x) (AShift s')); [exact Ha|discriminate]. }
    exact (proj2 (proj1 (edges_spec s Hs) x s' Hx Ha)).
  - apply (proj2 (edges_spec s (core_state _ _ _ Hc))); [|apply expects_spec; eauto].
    apply Nat.ltb_lt. exact (po_rhs _ (sh_prod shape_spec p (core_lt _ _ _ Hc)) (Nt B) (nth_error_In _ _ Hn)).
Qed.

Lemma EXK : forall s X s', edge s X s' -> forall p d', core s' p d' -> 0 < d' ->
  exists d, d' = S d /\ nth_error (rhs A p) d = Some X /\ core s p d.
Proof. intros s X s' He. apply edge_kernel in He. apply kernel_ok_spec in He. apply He. Qed.

Lemma E0 : forall s X s', edge s X s' -> s' <> 0.
Proof. intros s X s' He. apply edge_kernel in He. apply kernel_ok_spec in He. apply He. Qed.

Lemma closure_spec s it : In it (items_of C s) ->
  match i_dot it with
  | S _ => s <> 0
  | O => (s = 0 /\ i_prod it = start_prod A) \/
         exists par, In par (items_of C s) /\
           nth_error (rhs A (i_prod par)) (i_dot par) = Some (Nt (lhs A (i_prod it))) /\
           (i_dot par = 0 -> i_rank par < i_rank it)
  end.
Proof.
  intros Hin. pose proof (items_state _ _ Hin) as Hs.
  destruct (exact_state s Hs) as (_ & Hc & _). unfold closure_ok in Hc.
  rewrite forallb_forall in Hc. specialize (Hc it Hin).
  destruct (i_dot it) as [|d].
  - apply orb_true_iff in Hc as [Hc|Hc].
    + apply andb_true_iff in Hc as [H1 H2]. apply Nat.eqb_eq in H1, H2. left; auto.
    + right. apply existsb_exists in Hc as (par & Hpin & Hb). exists par. split; [auto|].
      destruct (nth_error _ _) as [[t|B]|]; try discriminate.
      apply andb_true_iff in Hb as [H1 H2]. apply Nat.eqb_eq in H1. subst B. split; [reflexivity|].
      intros Hd. rewrite Hd in H2. apply Nat.ltb_lt in H2. exact H2.
  - apply negb_true_iff, Nat.eqb_neq in Hc. exact Hc.
Qed.

Lemma EXC : forall s q, core s q 0 ->
  (s = 0 /\ q = start_prod A) \/
  exists p d, core s p d /\ nth_error (rhs A p) d = Some (Nt (lhs A q)).
Proof.
  intros s q Hc. apply core_in in Hc as (it & Hin & <- & Hd).
  pose proof (closure_spec s it Hin) as H. rewrite Hd in H.
  destruct H as [H|(par & Hpin & Hn & _)]; [left; exact H|].
  right. exists (i_prod par), (i_dot par). split; [apply in_core; auto|exact Hn].
Qed.

Lemma EX0 : forall p d, core 0 p d -> d = 0.
Proof.
  intros p d Hc. apply core_in in Hc as (it & Hin & <- & <-).
  pose proof (closure_spec 0 it Hin) as H. destruct (i_dot it); [reflexivity|congruence].
Qed.

Lemma all_la_in a : (match a with Some t => t < tn_term A | None => True end) -> In a (all_la A).
Proof.
  unfold all_la. destruct a as [t|]; intros H; [right|left; reflexivity].
  apply in_map. apply seq_in. exact H.
Qed.

Lemma RJ : forall s a p, (match a with Some t => t < tn_term A | None => True end) ->
  tact A s a = AReduce p -> core s p (length (rhs A p)) /\ p < length (prods A).
Proof.
  intros s a p Ha Ht.
  assert (Hs : s < n_states A).
  { eapply (tact_state s a (AReduce p)); [exact Ht|discriminate]. }
  destruct (exact_state s Hs) as (_ & _ & Hr). unfold reduces_ok in Hr.
  rewrite forallb_forall in Hr. specialize (Hr a (all_la_in a Ha)). rewrite Ht in Hr.
  split; [exact Hr|]. eapply core_lt; eauto.
Qed.

Lemma start_fresh : forall p, p < length (prods A) -> ~ In (Nt (lhs A (start_prod A))) (rhs A p).
Proof. intros p Hp. exact (po_fresh _ (sh_prod shape_spec p Hp)). Qed.

Lemma start_unique : forall q, q < length (prods A) -> lhs A q = lhs A (start_prod A) -> q = start_prod A.
Proof. intros q Hq. exact (po_unique _ (sh_prod shape_spec q Hq)). Qed.

Lemma err_col_lt : uses_recovery A = true -> err_col A < tn_term A.
Proof. intros Hu. pose proof (sh_err_col shape_spec Hu). unfold err_col. lia. Qed.

Lemma reduce_facts orc st a p la_start : Linked A core st -> la_ok A a -> tact A (top_state st) a = AReduce p ->
  reduce_ok A core orc p st (reduce A orc p la_start st).
Proof. exact (reduce_linked A core EXK EXC EX0 E0 RJ start_fresh core_lt orc st a p la_start). Qed.
End Spec.
