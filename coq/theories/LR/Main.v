(** Top-level statements for validated tables (no error recovery): the parser accepts exactly the
    sentences of the grammar and returns their derivation tree (C01); a syntax error is reported at the
    first token that cannot continue the input, and the expected terminals can (C04, C05); the parser
    decides the language; [ExtraToken] is never returned. *)
From Coq Require Import List Bool Arith Lia.
From LV Require Import LR.Driver LR.Validator LR.ValidatorSpec LR.Soundness LR.Completeness LR.ErrorPos LR.Locality LR.Viable LR.NoPanicRec LR.Termination.
Import ListNotations.

Section Main.
Variable A : tables.
Variable C : cert.
Hypothesis Hvalid : valid A C = true.
Hypothesis Hnorec : uses_recovery A = false.

Lemma valid_proj : shape A C = true /\ complete A C = true /\ exact A C = true /\
                   start_eof_only A = true /\ terminates A C = true.
Proof. pose proof Hvalid as H. unfold valid in H. rewrite !andb_true_iff in H. tauto. Qed.

Definition tok_in_range (k : token) : Prop :=
  match tk_idx k with Some t => t < tn_names A | None => True end.

(* a sentence: the yield of a derivation tree (without error leaves) of the start symbol *)
Definition sentence (w : list token) : Prop :=
  exists t, wfp A t (Nt (start_nt A)) /\ yield t = w.

Theorem parse_ok_sound orc fuel w v s :
  Forall tok_in_range w ->
  drive A orc fuel (map IOk w) = (ROk v, s) ->
  wfp A v (Nt (start_nt A)) /\ yield v = w /\ acts (trace s) ++ [start_prod A] = postorder v.
Proof.
  intros Hw H. destruct valid_proj as (Hs & _ & He & _).
  destruct (sound A C Hs He Hnorec orc fuel w v s Hw H) as (Hwf & Hp & Hy & Hpo).
  split; [exact (wf_pure_wfp' A C Hs Hnorec v _ Hwf Hp)|split; assumption].
Qed.

Theorem parse_ok_complete t :
  wfp A t (Nt (start_nt A)) ->
  exists n, forall fuel, n <= fuel -> exists s, drive A no_fail fuel (map IOk (yield t)) = (ROk t, s).
Proof.
  intros Hwf. destruct valid_proj as (Hs & Hc & _).
  destruct (complete_run A C Hs Hc t Hwf) as [n Hn].
  exists (n + 1). intros fuel Hf. unfold drive.
  destruct (Hn fuel (fuel - n - 1)) as [s Hs']. exists s.
  replace (n + S (fuel - n - 1)) with fuel in Hs' by lia. exact Hs'.
Qed.

(** the parser returns Ok exactly on the sentences *)
Theorem parse_ok_iff w :
  Forall tok_in_range w ->
  (sentence w <-> exists fuel v s, drive A no_fail fuel (map IOk w) = (ROk v, s)).
Proof.
  intros Hw. split.
  - intros (t & Hwf & <-). destruct (parse_ok_complete t Hwf) as [n Hn].
    destruct (Hn n (le_n _)) as [s Hs]. eauto.
  - intros (fuel & v & s & H). destruct (parse_ok_sound _ _ _ _ _ Hw H) as (Hwf & Hy & _).
    exists v. auto.
Qed.

(* on a sentence every run that is answered is answered with its tree (completeness under a larger
   budget, and the answer does not depend on the budget) *)
Lemma sentence_answer fuel t r s : wfp A t (Nt (start_nt A)) ->
  drive A no_fail fuel (map IOk (yield t)) = (r, s) -> r <> RFuel -> r = ROk t.
Proof.
  intros Hwf H Hr. destruct (parse_ok_complete t Hwf) as [n Hn].
  destruct (Hn (Nat.max fuel n) (Nat.le_max_r _ _)) as [s' Hs'].
  rewrite (drive_mono A Hnorec no_fail fuel _ _ _ H Hr _ (Nat.le_max_l _ _)) in Hs'. congruence.
Qed.

(* validated tables exist only for unambiguous grammars: both trees are what the one run on their yield returns *)
Theorem unambiguous t1 t2 :
  wfp A t1 (Nt (start_nt A)) -> wfp A t2 (Nt (start_nt A)) -> yield t1 = yield t2 -> t1 = t2.
Proof.
  intros H1 H2 Hy. destruct (parse_ok_complete t1 H1) as [n1 Hn1].
  destruct (parse_ok_complete t2 H2) as [n2 Hn2].
  destruct (Hn1 (n1 + n2)) as [s1 Hs1]; [lia|]. destruct (Hn2 (n1 + n2)) as [s2 Hs2]; [lia|].
  rewrite Hy in Hs1. rewrite Hs1 in Hs2. congruence.
Qed.

(** C04, the non-viability half: the token carried by [UnrecognizedToken] cannot continue the input
    consumed before it -- no sentence starts with that prefix followed by that token.  (Completeness
    says a sentence is accepted; locality says the error does not depend on what follows.) *)
Theorem error_token_cannot_continue fuel w k exp s :
  drive A no_fail fuel (map IOk w) = (RErr (PUnrecTok k exp), s) ->
  exists u v, w = u ++ k :: v /\ npulled s = S (length u) /\ forall v', ~ sentence (u ++ k :: v').
Proof.
  intros H.
  destruct (unrecognized_token_position A no_fail fuel w k exp s Hnorec H) as [(u & v & Hw & Hp) _].
  exists u, v. repeat split; auto. intros v' (t & Hwf & Hy). rewrite Hw in H.
  destruct (unrecognized_token_is_local A no_fail fuel u k v v' exp s Hnorec H Hp) as [s2 H2]. rewrite <- Hy in H2.
  discriminate (sentence_answer _ _ _ _ Hwf H2 ltac:(discriminate)).
Qed.

(* the configuration of the error (LR/ErrorPos.v) holds a good stack, and a good stack holds a viable prefix *)
Lemma err_at_viable fuel u exp s : productive A C = true -> err_at A C fuel u exp s ->
  (exists v', sentence (u ++ v')) /\
  forall x kx, In x exp -> tk_idx kx = Some x -> exists v', sentence (u ++ [kx] ++ v').
Proof.
  intros Hprod (Hg & <- & Hexp). destruct valid_proj as (Hs & Hc & He & Hse & _). split.
  - apply (viable_good A C Hs He Hprod Hnorec); [|exact Hg].
    destruct (SI A C Hs Hc) as (it & Hin & _). eauto.
  - intros x kx Hx Hk.
    destruct (expected_viable A C Hs He Hprod Hnorec Hse fuel (stk s) exp x kx Hg Hexp Hx Hk) as [v' Hv'].
    exists v'. rewrite app_assoc. exact Hv'.
Qed.

(** C04, the viability half: with a productive grammar (every nonterminal derives some terminal
    string -- certificate ranks), what was consumed before the reported token is a prefix of a sentence *)
Theorem consumed_prefix_is_viable orc fuel w k exp s :
  productive A C = true ->
  Forall tok_in_range w ->
  drive A orc fuel (map IOk w) = (RErr (PUnrecTok k exp), s) ->
  exists u v, w = u ++ k :: v /\ npulled s = S (length u) /\ (exists v', sentence (u ++ v')) /\
              forall x kx, In x exp -> tk_idx kx = Some x -> exists v', sentence (u ++ [kx] ++ v').
Proof.
  intros Hprod Hw H. destruct valid_proj as (Hs & _ & He & _).
  destruct (run_J A C Hs He Hnorec orc fuel w _ _ Hw H) as (u & v & Hwv & Hn & Hat).
  exists u, v. split; [exact Hwv|]. split; [exact Hn|]. exact (err_at_viable fuel u exp s Hprod Hat).
Qed.

(** C05: every terminal named in an expected list can continue the consumed input (here at the end of the
    input; for an error token it is the last clause of [consumed_prefix_is_viable]) *)
Theorem expected_at_eof_are_viable orc fuel w loc exp s :
  productive A C = true ->
  Forall tok_in_range w ->
  drive A orc fuel (map IOk w) = (RErr (PUnrecEof loc exp), s) ->
  forall x kx, In x exp -> tk_idx kx = Some x -> exists v', sentence (w ++ [kx] ++ v').
Proof.
  intros Hprod Hw H. destruct valid_proj as (Hs & _ & He & _).
  exact (proj2 (err_at_viable fuel w exp s Hprod (run_J A C Hs He Hnorec orc fuel w _ _ Hw H))).
Qed.

Lemma same_split {X} (u1 u2 v1 v2 : list X) k : u1 ++ k :: v1 = u2 ++ k :: v2 -> length u1 = length u2 -> u1 = u2.
Proof.
  revert u2. induction u1 as [|a u1 IH]; intros [|b u2] H Hl; simpl in *; try lia; [reflexivity|].
  inversion H. f_equal. apply IH; [assumption|lia].
Qed.

(** C04: the reported token is the FIRST one that cannot continue the input *)
Theorem error_at_first_non_viable_token fuel w k exp s :
  productive A C = true ->
  Forall tok_in_range w ->
  drive A no_fail fuel (map IOk w) = (RErr (PUnrecTok k exp), s) ->
  exists u v, w = u ++ k :: v /\ npulled s = S (length u) /\
              (exists v', sentence (u ++ v')) /\ (forall v', ~ sentence (u ++ k :: v')).
Proof.
  intros Hprod Hw H.
  destruct (consumed_prefix_is_viable no_fail fuel w k exp s Hprod Hw H) as (u & v & Hwv & Hn & Hv & _).
  destruct (error_token_cannot_continue fuel w k exp s H) as (u2 & v2 & Hwv2 & Hn2 & Hnv).
  assert (u = u2) by (apply (same_split u u2 v v2 k); [congruence|lia]). subst u2.
  exists u, v. repeat split; auto.
Qed.

Theorem eof_error_not_a_sentence fuel w loc exp s :
  drive A no_fail fuel (map IOk w) = (RErr (PUnrecEof loc exp), s) -> ~ sentence w.
Proof.
  intros H (t & Hwf & <-). discriminate (sentence_answer _ _ _ _ Hwf H ltac:(discriminate)).
Qed.

(** the parser decides the language: beyond some budget every input is answered, with its derivation
    tree if it is a sentence and with an error if it is not (actions that do not fail) *)
Theorem parser_decides w : Forall tok_in_range w ->
  exists n, forall fuel, n <= fuel ->
    (exists t s, drive A no_fail fuel (map IOk w) = (ROk t, s) /\ wfp A t (Nt (start_nt A)) /\ yield t = w) \/
    (exists e s, drive A no_fail fuel (map IOk w) = (RErr e, s) /\ ~ sentence w).
Proof.
  intros Hw. destruct valid_proj as (Hs & _ & He & _ & Ht).
  assert (Hitems : Forall (item_ok A) (map IOk w)) by (apply Forall_map; exact Hw).
  destruct (parser_terminates A C Hs He Ht Hnorec no_fail (map IOk w) Hitems) as [n Hn].
  exists n. intros fuel Hf. specialize (Hn fuel Hf).
  destruct (drive A no_fail fuel (map IOk w)) as [r s] eqn:E. cbn [fst] in Hn.
  destruct r as [v|e| |].
  - left. exists v, s. destruct (parse_ok_sound no_fail fuel w v s Hw E) as (H1 & H2 & _). auto.
  - right. exists e, s. split; [reflexivity|]. intros (t & Hwf & <-).
    discriminate (sentence_answer _ _ _ _ Hwf E ltac:(discriminate)).
  - exfalso. exact (no_panic A C Hs He no_fail fuel w RPanic s Hw E eq_refl).
  - exfalso. apply Hn. reflexivity.
Qed.

(** ExtraToken is never returned on validated tables (no recovery). *)
Theorem no_extra_token orc fuel w k s :
  Forall tok_in_range w ->
  drive A orc fuel (map IOk w) <> (RErr (PExtra k), s).
Proof.
  intros Hw H. destruct valid_proj as (Hs & _ & _ & Hse & _).
  destruct (ErrorPos.extra_token_only_from_start_reduce A orc fuel w k s Hnorec H) as (Hin & i & Hi & Ht).
  rewrite Forall_forall in Hw. specialize (Hw k Hin). unfold tok_in_range in Hw. rewrite Hi in Hw.
  rewrite (names_term A C Hs Hnorec) in Hw.
  exact (not_start_on_token A C Hs _ _ _ Hse Hw Ht eq_refl).
Qed.
End Main.
