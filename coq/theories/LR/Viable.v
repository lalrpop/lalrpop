(** Viable prefixes: with a validated, productive certificate, what the parser has consumed can always
    be completed to a sentence.  Used for the second half of C04 (the prefix before the error token is
    a prefix of a sentence) and for C05 (every expected terminal is a viable continuation). *)
From Coq Require Import List ZArith Bool Lia.
From LV Require Import LR.Driver LR.Validator LR.Machine LR.Safety LR.ValidatorSpec LR.Soundness LR.NoPanic LR.Completeness.
Import ListNotations.

Section Viable.
Variable A : tables.
Variable C : cert.
Hypothesis Hshape : shape A C = true.
Hypothesis Hexact : exact A C = true.
Hypothesis Hprod : productive A C = true.
Hypothesis Hnorec : uses_recovery A = false.

Notation core := (core C).
Notation Linked := (Linked A core).
Notation wf := (wf A).
Notation wfp := (wfp A).
Notation rhs := (rhs A).
Notation lhs := (lhs A).

(* a token of terminal t to stand as a leaf; only [tk_idx] matters to [wfp] *)
Definition mk (t : nat) : token := {| tk_idx := Some t; tk_id := 0%N; tk_lo := 0%Z; tk_hi := 0%Z |}.

Lemma sym_ok_of p x : p < n_prods A -> In x (rhs p) -> sym_ok A x = true.
Proof.
  intros Hp. exact (po_rhs A p (sh_prod A C (shape_spec A C Hshape) p Hp) x).
Qed.

Lemma occurs_rhs p m : p < n_prods A -> In (Nt m) (rhs p) -> occurs A m = true.
Proof.
  intros Hp Hin. unfold occurs. apply existsb_exists. exists p. split; [apply seq_in; exact Hp|].
  apply orb_true_iff. right. apply existsb_exists. exists (Nt m). split; [exact Hin|apply sym_eqb_refl].
Qed.

Lemma occurs_lhs p : p < n_prods A -> occurs A (lhs p) = true.
Proof.
  intros Hp. unfold occurs. apply existsb_exists. exists p. split; [apply seq_in; exact Hp|].
  apply orb_true_iff. left. apply Nat.eqb_refl.
Qed.

Lemma names_term' : tn_names A = tn_term A.
Proof. exact (names_term A C Hshape Hnorec). Qed.

Lemma trees_for l : (forall x, In x l -> exists t, wfp t x) -> exists ts, Forall2 wfp ts l.
Proof.
  induction l as [|x l IH]; intros H; [exists []; constructor|].
  destruct (H x (or_introl eq_refl)) as [t Ht]. destruct IH as [ts Hts]; [intros y Hy; exact (H y (or_intror Hy))|].
  exists (t :: ts). constructor; assumption.
Qed.

Lemma tm_tree p t : p < n_prods A -> In (Tm t) (rhs p) -> wfp (Leaf (mk t)) (Tm t).
Proof.
  intros Hp Hx. constructor; [reflexivity|]. rewrite names_term'. exact (proj1 (Nat.ltb_lt _ _) (sym_ok_of p _ Hp Hx)).
Qed.

(* every nonterminal that occurs derives a terminal string *)
Lemma prod_tree : forall r n, prank C n < r -> n < n_nt A -> occurs A n = true -> exists t, wfp t (Nt n).
Proof.
  induction r as [|r IH]; intros n Hr Hn Ho; [lia|].
  unfold productive in Hprod. rewrite forallb_forall in Hprod.
  specialize (Hprod n (proj2 (seq_in _ _) Hn)). rewrite Ho in Hprod. cbn [negb orb] in Hprod.
  apply existsb_exists in Hprod. destruct Hprod as (q & Hq & Hall).
  unfold prods_of in Hq. apply filter_In in Hq. destruct Hq as [Hq Hl].
  apply seq_in in Hq. apply Nat.eqb_eq in Hl. rewrite forallb_forall in Hall.
  destruct (trees_for (rhs q)) as [kids Hk].
  { intros [t|m] Hx; [exact (ex_intro _ _ (tm_tree q t Hq Hx))|].
    pose proof (Hall _ Hx) as Hax. apply Nat.ltb_lt in Hax. pose proof (sym_ok_of q _ Hq Hx) as Hok. apply Nat.ltb_lt in Hok.
    apply (IH m); [lia|exact Hok|exact (occurs_rhs q m Hq Hx)]. }
  exists (Node q kids). rewrite <- Hl. constructor; [exact Hq|exact Hk].
Qed.

Lemma suffix_trees p d : p < n_prods A -> exists ts, Forall2 wfp ts (skipn d (rhs p)).
Proof.
  intros Hp. apply trees_for. intros x Hd.
  assert (Hx : In x (rhs p)) by (rewrite <- (firstn_skipn d (rhs p)); apply in_or_app; right; exact Hd).
  destruct x as [t|m]; [exact (ex_intro _ _ (tm_tree p t Hp Hx))|].
  pose proof (sym_ok_of p _ Hp Hx) as Hok. apply Nat.ltb_lt in Hok.
  exact (prod_tree (S (prank C m)) m (le_n _) Hok (occurs_rhs p m Hp Hx)).
Qed.

(* [Q st it]: whatever trees complete the item after its dot, the consumed input followed by their yield
   extends to a sentence *)
Definition Q (st : list entry) (it : citem) : Prop :=
  forall ts, Forall2 wfp ts (skipn (i_dot it) (rhs (i_prod it))) ->
  exists t v', wfp t (Nt (start_nt A)) /\ yield t = yields st ++ flat_map yield ts ++ v'.

Definition good (st : list entry) : Prop := Linked st /\ Forall (fun e => pure (e_tree e)) st.

Lemma good_skipn k st : good st -> good (skipn k st).
Proof. intros [H1 H2]. split; [apply linked_skipn; exact H1|apply Forall_skipn; exact H2]. Qed.

Lemma wf_pure_wfp' t X : wf t X -> pure t -> wfp t X.
Proof.
  revert X. induction t as [k|e d lo0 hi0|p kids IH] using tree_ind'; intros X Hwf Hp.
  - inversion Hwf; subst. constructor; [assumption|]. rewrite names_term'. assumption.
  - destruct Hp.
  - inversion Hwf as [| |p' kids' Hlt Hk]; subst. constructor; [exact Hlt|].
    apply pure_node in Hp. clear Hwf Hlt. revert IH Hp.
    induction Hk as [|t Y ts beta Ht _ IHk]; intros IH Hp; constructor.
    + inversion IH; inversion Hp; subst. auto.
    + inversion IH; inversion Hp; subst. auto.
Qed.

Lemma popped_trees st p d : good st -> core (top_state st) p d ->
  d <= length st /\ core (top_state (skipn d st)) p 0 /\
  Forall2 wfp (map e_tree (rev (firstn d st))) (firstn d (rhs p)).
Proof.
  intros [HL Hpu] Hc.
  destruct (walk_back A core (EXK A C Hshape Hexact) (EX0 A C Hshape Hexact) st p d HL Hc) as [Hlen Hall].
  destruct (Hall d (le_n _)) as [Hc0 Hsy]. rewrite Nat.sub_diag in Hc0, Hsy. cbn [skipn] in Hsy.
  split; [exact Hlen|]. split; [exact Hc0|].
  rewrite <- Hsy. clear Hsy Hall.
  assert (Hf : Forall (fun e => wfp (e_tree e) (esym A e)) (rev (firstn d st))).
  { apply Forall_rev. apply Forall_firstn.
    pose proof (linked_forall A core st HL) as Hw. rewrite Forall_forall in *.
    intros e He. apply wf_pure_wfp'; [apply Hw; exact He|apply Hpu; exact He]. }
  exact (Forall2_map_map _ _ _ _ Hf).
Qed.

Lemma skipn_cons_nth {X} (l : list X) d x : nth_error l d = Some x -> skipn d l = x :: skipn (S d) l.
Proof. intros H. apply skipn_cons_iff. auto. Qed.

(* one level up: the item's production is reduced (as a tree) and handed to a parent item of the
   state exposed below it *)
Lemma climb st it : good st -> In it (items_of C (top_state st)) ->
  (forall it0, In it0 (items_of C (top_state (skipn (i_dot it) st))) -> i_prod it0 = i_prod it -> i_dot it0 = 0 ->
     (top_state (skipn (i_dot it) st) = 0 /\ i_prod it = start_prod A) \/
     exists par, In par (items_of C (top_state (skipn (i_dot it) st))) /\
                 nth_error (rhs (i_prod par)) (i_dot par) = Some (Nt (lhs (i_prod it))) /\
                 Q (skipn (i_dot it) st) par) ->
  Q st it.
Proof.
  intros Hg Hin Hup ts Hts.
  set (p := i_prod it) in *. set (d := i_dot it) in *.
  pose proof (in_core C _ _ Hin) as Hc. fold p d in Hc.
  destruct (popped_trees st p d Hg Hc) as (Hlen & Hc0 & Hpop).
  assert (Hp : p < n_prods A) by (exact (core_lt A C Hshape _ _ _ Hc)).
  set (T := Node p (map e_tree (rev (firstn d st)) ++ ts)).
  assert (HT : wfp T (Nt (lhs p))).
  { constructor; [exact Hp|]. rewrite <- (firstn_skipn d (rhs p)). apply Forall2_app; assumption. }
  assert (HyT : yields st ++ flat_map yield ts = yields (skipn d st) ++ yield T).
  { rewrite (yields_split d st). unfold T. rewrite yield_node, flat_map_app, <- app_assoc. reflexivity. }
  destruct (core_in C _ _ _ Hc0) as (it0 & Hin0 & Hp0 & Hd0).
  destruct (Hup it0 Hin0 Hp0 Hd0) as [[Hz Hs]|(par & Hpar & Hn & HQ)].
  - exists T, []. split.
    + unfold start_nt. rewrite <- Hs. exact HT.
    + rewrite app_nil_r, HyT.
      rewrite (top_zero_nil A core (E0 A C Hshape Hexact) (skipn d st) (proj1 (good_skipn d st Hg)) Hz). reflexivity.
  - assert (Hpp : i_prod par < n_prods A) by (exact (core_lt A C Hshape _ _ _ (in_core C _ _ Hpar))).
    destruct (suffix_trees (i_prod par) (S (i_dot par)) Hpp) as [rest Hrest].
    destruct (HQ (T :: rest)) as (t & v' & Ht & Hy).
    + rewrite (skipn_cons_nth _ _ _ Hn). constructor; assumption.
    + exists t, (flat_map yield rest ++ v'). split; [exact Ht|].
      rewrite Hy. cbn [flat_map].
      rewrite <- !app_assoc. rewrite (app_assoc (yields st) (flat_map yield ts)), HyT. rewrite <- !app_assoc. reflexivity.
Qed.

Lemma complete_item : forall st, good st -> forall it, In it (items_of C (top_state st)) -> Q st it.
Proof.
  intros st. induction st as [st IHst] using (induction_ltof1 _ (@length entry)). unfold ltof in IHst. intros Hg.
  (* items with the dot inside: the stack below is shorter *)
  assert (Hpos : forall it, In it (items_of C (top_state st)) -> 0 < i_dot it -> Q st it).
  { intros it Hin Hd. apply climb; [exact Hg|exact Hin|].
    intros it0 Hin0 Hp0 Hd0.
    pose proof (closure_spec A C Hshape Hexact _ it0 Hin0) as Hcl. rewrite Hd0 in Hcl.
    destruct Hcl as [[Hz Hs]|(par & Hpar & Hn & _)]; [left; split; [exact Hz|congruence]|].
    right. exists par. split; [exact Hpar|]. split; [rewrite <- Hp0; exact Hn|].
    destruct (popped_trees st (i_prod it) (i_dot it) Hg (in_core C _ _ Hin)) as (Hl & _).
    apply IHst; [rewrite skipn_length; lia|apply good_skipn; exact Hg|exact Hpar]. }
  (* closure items: by the rank of the certificate *)
  assert (Hrank : forall r it, i_rank it < r -> In it (items_of C (top_state st)) -> i_dot it = 0 -> Q st it).
  { induction r as [|r IHr]; intros it Hr Hin Hd; [lia|].
    apply climb; [exact Hg|exact Hin|]. rewrite Hd. cbn [skipn].
    intros it0 Hin0 Hp0 Hd0.
    (* use the item itself, whose rank is known *)
    pose proof (closure_spec A C Hshape Hexact _ it Hin) as Hcl. rewrite Hd in Hcl.
    destruct Hcl as [[Hz Hs]|(par & Hpar & Hn & Hrk)]; [left; split; assumption|].
    right. exists par. split; [exact Hpar|]. split; [exact Hn|].
    destruct (i_dot par) as [|dp] eqn:Edp.
    - apply (IHr par); [specialize (Hrk eq_refl); lia|exact Hpar|exact Edp].
    - apply Hpos; [exact Hpar|lia]. }
  intros it Hin. destruct (i_dot it) as [|d] eqn:Ed.
  - apply (Hrank (S (i_rank it))); [lia|exact Hin|exact Ed].
  - apply Hpos; [exact Hin|lia].
Qed.

(* [Main.sentence (u ++ v')] for some v', written out (Main.v is a later file) *)
Definition viable (u : list token) : Prop := exists v' t, wfp t (Nt (start_nt A)) /\ yield t = u ++ v'.

Lemma viable_push st p d X t : good st -> core (top_state st) p d -> nth_error (rhs p) d = Some X -> wfp t X ->
  viable (yields st ++ yield t).
Proof.
  intros Hg Hc Hn Ht. destruct (core_in C _ _ _ Hc) as (it & Hin & Hpi & Hdi).
  destruct (suffix_trees p (S d) (core_lt A C Hshape _ _ _ Hc)) as [ts Hts].
  destruct (complete_item st Hg it Hin (t :: ts)) as (t0 & v' & Ht0 & Hy).
  - rewrite Hpi, Hdi, (skipn_cons_nth _ _ _ Hn). constructor; assumption.
  - exists (flat_map yield ts ++ v'), t0. split; [exact Ht0|]. rewrite Hy. cbn [flat_map]. rewrite <- !app_assoc. reflexivity.
Qed.

(* shifting a token: the state expects it, so the consumed input followed by it is viable *)
Lemma viable_shift st k i s' : good st -> tk_idx k = Some i -> i < tn_term A ->
  tact A (top_state st) (Some i) = AShift s' -> viable (yields st ++ [k]).
Proof.
  intros Hg Hk Hi Ha.
  assert (Hs : top_state st < n_states A).
  { eapply (tact_state A C Hshape (top_state st) (Some i) (AShift s')); [exact Ha|discriminate]. }
  destruct (proj1 (expects_spec A C _ _) (proj1 (proj1 (edges_spec A C Hexact _ Hs) i s' Hi Ha))) as (p & d & Hc & Hn).
  apply (viable_push st p d (Tm i) (Leaf k) Hg Hc Hn). constructor; [exact Hk|]. rewrite names_term'. exact Hi.
Qed.

(* every stack the parser can build holds a viable prefix: its top entry was pushed over an edge,
   a shift that the state below expects or the goto of an item of the state below *)
Lemma viable_good st : (exists it, In it (items_of C 0)) -> good st -> viable (yields st).
Proof.
  intros [it0 H0] Hg. destruct st as [|e below].
  - destruct (suffix_trees (i_prod it0) (i_dot it0) (core_lt A C Hshape _ _ _ (in_core C _ _ H0))) as [ts Hts].
    destruct (complete_item [] Hg it0 H0 ts Hts) as (t & v' & Ht & Hy).
    exists (flat_map yield ts ++ v'), t. split; [exact Ht|exact Hy].
  - pose proof (good_skipn 1 _ Hg) as Hb. destruct Hg as [(Hwf & He & _) Hpu]. inversion Hpu as [|? ? Hpe _]; subst.
    rewrite yields_cons. apply wf_pure_wfp' in Hwf; [|exact Hpe].
    inversion He as [s x s' Hx Ha Es EX Es'|s B p d Hc Hn Es EX Es']; subst s; rewrite <- EX in Hwf.
    + inversion Hwf as [k ? Hk _ Hl|]. exact (viable_shift below k x _ Hb Hk Hx Ha).
    + exact (viable_push below p d _ _ Hb Hc Hn Hwf).
Qed.

Lemma reduce_good orc st a p la st' ev : good st -> la_ok A a -> tact A (top_state st) a = AReduce p ->
  reduce A orc p la st = (RdCont st', ev) -> good st' /\ yields st' = yields st.
Proof.
  intros [HL Hpu] Ha Ht E. pose proof (reduce_facts A C Hshape Hexact orc st a p la HL Ha Ht) as Hred. rewrite E in Hred.
  inversion Hred as [| |st2 lo hi kids _ _ -> -> HL' _].
  destruct (node_stack p (length (rhs p)) st (goto_at A (top_state (skipn (length (rhs p)) st)) (lhs p)) lo hi Hpu) as (Hpu' & Hy' & _).
  split; [split; [exact HL'|exact Hpu']|exact Hy'].
Qed.

(* so that the simulation never accepts by the start production under a token *)
Hypothesis Hseo : start_eof_only A = true.

(** the [accepts] simulation of the expected-token computation: if it says that terminal [i] would
    be shifted, then after the reductions it simulates the stack really shifts [i], and nothing of
    what was consumed changes *)
Lemma accepts_shift : forall f st i, good st -> i < tn_term A ->
  accepts A f (states_of st) (Some i) = ATrue ->
  exists st' target, good st' /\ yields st' = yields st /\ tact A (top_state st') (Some i) = AShift target.
Proof.
  induction f as [|f IH]; intros st i Hg Hi H; [discriminate|].
  pose proof (accepts_S A C Hshape Hexact f _ (Some i) (slinked_of_linked A C _ (proj1 Hg)) Hi) as HS.
  rewrite hd_states_of in HS.
  destruct (tact A (top_state st) (Some i)) as [t|p| |] eqn:Ht; [exists st, t; auto| |congruence|destruct HS].
  destruct (Nat.eqb_spec p (start_prod A)) as [->|Hne].
  - destruct (not_start_on_token A C Hshape _ _ _ Hseo Hi Ht eq_refl).
  - (* the same reduce on the real stack, with actions that do not fail *)
    destruct HS as (_ & _ & HS). rewrite HS in H.
    pose proof (reduce_facts A C Hshape Hexact no_fail st (Some i) p None (proj1 Hg) Hi Ht) as Hred.
    destruct (reduce A no_fail p None st) as [rr ev] eqn:E.
    inversion Hred as [? ? Ho|? Hs|st' ? ? ? _ _ _ _ _ _]; subst; [discriminate Ho|contradiction|].
    destruct (reduce_spop A C Hshape Hexact _ _ (Some i) _ _ _ _ (proj1 Hg) Hi Ht E) as (_ & _ & Hso). rewrite <- Hso in H.
    destruct (reduce_good _ _ (Some i) _ _ _ _ Hg Hi Ht E) as [Hg' Hy'].
    destruct (IH _ i Hg' Hi H) as (st2 & target & Hg2 & Hy2 & Ht2).
    exists st2, target. split; [exact Hg2|]. split; [congruence|exact Ht2].
Qed.

Lemma expected_viable f st L x k : good st ->
  expected_go A f (states_of st) 0 (tn_names A) = EList L -> In x L -> tk_idx k = Some x ->
  viable (yields st ++ [k]).
Proof.
  intros Hg HL Hx Hk. destruct (expected_go_in A f _ _ _ _ _ HL Hx) as [Ha Hr].
  rewrite names_term' in Hr.
  destruct (accepts_shift f st x Hg ltac:(lia) Ha) as (st' & target & Hg' & Hy' & Ht').
  rewrite <- Hy'. apply (viable_shift st' k x target Hg' Hk ltac:(lia) Ht').
Qed.
End Viable.
