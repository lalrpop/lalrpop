(** Termination from the validator's [terminates] certificate.
    Part 1: on state lists -- the sequence of reductions the tables prescribe for a fixed lookahead
    ends within an explicit bound, for every linked state list (tables with or without recovery).
    Part 2 (after the second import line): the driver. *)
From Coq Require Import List BinInt Bool Arith Lia.
From LV Require Import LR.Driver LR.Validator LR.Safety LR.ValidatorSpec LR.NoPanic.
Import ListNotations.

Lemma as_reduce_no_shift a p : as_reduce a = Some p -> as_shift a = None.
Proof.
  unfold as_reduce, as_shift. destruct (Z.ltb_spec a 0); [|discriminate].
  destruct (Z.ltb_spec 0 a); [lia|reflexivity].
Qed.

Section Term.
Variable A : tables.
Variable C : cert.
Hypothesis Hshape : shape A C = true.
Hypothesis Hterm : terminates A C = true.

Notation core := (core C).
Notation edge := (edge A core).
Notation SLinked := (SLinked A C).
Notation N := (n_states A).
Notation F := (c_F C).

(** one reduction on the state vector (top first, the base state 0 last); None: the phase is over
    (shift, error, accept, or the tables ask for more entries than there are) *)
Definition sred (a : la) (l : list nat) : option (list nat) :=
  match tact A (hd 0 l) a with
  | AReduce p =>
    if p =? start_prod A then None
    else let k := length (rhs A p) in
         if k <? length l then Some (goto_at A (hd 0 (skipn k l)) (lhs A p) :: skipn k l) else None
  | _ => None
  end.

Lemma sred_reduce a l p : tact A (hd 0 l) a = AReduce p -> p <> start_prod A -> length (rhs A p) < length l ->
  sred a l = Some (spop A p l).
Proof.
  intros Ht Hp Hl. unfold sred. rewrite Ht. apply Nat.eqb_neq in Hp. apply Nat.ltb_lt in Hl. rewrite Hp. cbv zeta. rewrite Hl. reflexivity.
Qed.

(* None: halted within n steps; Some l': still running after n steps *)
Fixpoint siter (n : nat) (a : la) (l : list nat) : option (list nat) :=
  match n with
  | O => Some l
  | S n' => match sred a l with None => None | Some l' => siter n' a l' end
  end.

Lemma siter_add n1 : forall n2 a l,
  siter (n1 + n2) a l = match siter n1 a l with None => None | Some l' => siter n2 a l' end.
Proof.
  induction n1 as [|n1 IH]; intros n2 a l; cbn [Nat.add siter]; [reflexivity|].
  destruct (sred a l); [apply IH|reflexivity].
Qed.

Lemma siter_none_mono n a l k : siter n a l = None -> siter (n + k) a l = None.
Proof. intros H. rewrite siter_add, H. reflexivity. Qed.

Lemma siter_none_le n m a l : siter n a l = None -> n <= m -> siter m a l = None.
Proof. intros H Hl. replace m with (n + (m - n)) by lia. apply siter_none_mono. exact H. Qed.

(* what [sred] does when the reduce pops m entries more than the part above the base entry q: q is the first of
   them, hence m - 1 from [below] *)
Definition esc (below : list nat) (m nt : nat) : option (list nat) :=
  if m - 1 <? length below then Some (goto_at A (hd 0 (skipn (m - 1) below)) nt :: skipn (m - 1) below) else None.

Lemma hd_app_base (loc : list nat) q below : hd 0 (loc ++ q :: below) = hd q loc.
Proof. destruct loc; reflexivity. Qed.

Lemma skipn_app_le {X} k (l1 l2 : list X) : k <= length l1 -> skipn k (l1 ++ l2) = skipn k l1 ++ l2.
Proof. intros H. rewrite skipn_app. replace (k - length l1) with 0 by lia. reflexivity. Qed.

Lemma skipn_app_gt {X} k (l1 l2 : list X) : length l1 <= k -> skipn k (l1 ++ l2) = skipn (k - length l1) l2.
Proof. intros H. rewrite skipn_app, (skipn_all2 l1 H). reflexivity. Qed.

Lemma sred_split a q loc below :
  sred a (loc ++ q :: below) =
  match tact A (hd q loc) a with
  | AReduce p =>
    if p =? start_prod A then None
    else if length (rhs A p) <=? length loc
         then Some ((goto_at A (hd q (skipn (length (rhs A p)) loc)) (lhs A p) :: skipn (length (rhs A p)) loc) ++ q :: below)
         else esc below (length (rhs A p) - length loc) (lhs A p)
  | _ => None
  end.
Proof.
  unfold sred, esc. rewrite hd_app_base. destruct (tact A (hd q loc) a) as [s'|p| |]; [reflexivity| |reflexivity..].
  destruct (p =? start_prod A); [reflexivity|]. cbv zeta. rewrite app_length. cbn [length].
  destruct (Nat.leb_spec (length (rhs A p)) (length loc)) as [Hk|Hk].
  - rewrite (skipn_app_le _ _ _ Hk), hd_app_base. destruct (Nat.ltb_spec (length (rhs A p)) (length loc + S (length below))); [reflexivity|lia].
  - rewrite (skipn_app_gt _ loc (q :: below)) by exact (Nat.lt_le_incl _ _ Hk).
    remember (length (rhs A p) - length loc) as m eqn:Em. destruct m as [|m]; [lia|]. cbn [skipn Nat.sub]. rewrite Nat.sub_0_r.
    destruct (Nat.ltb_spec (length (rhs A p)) (length loc + S (length below))), (Nat.ltb_spec m (length below));
      [reflexivity|lia|lia|reflexivity].
Qed.

(** [closed] simulates [sred] on the part of the vector above its base entry *)
Lemma closed_sim a q : forall f loc r, closed A f a q loc = r -> forall below,
  match r with
  | CEnd => exists n, n <= f /\ siter n a (loc ++ q :: below) = None
  | CEscape m nt => 1 <= m /\ exists n, n < f /\
       siter (S n) a (loc ++ q :: below) = esc below m nt
  | _ => True
  end.
Proof.
  induction f as [|f IH]; intros loc r H below; cbn [closed] in H; [subst; exact I|].
  pose proof (sred_split a q loc below) as Hs.
  assert (Hend : sred a (loc ++ q :: below) = None -> exists n, n <= S f /\ siter n a (loc ++ q :: below) = None).
  { intros E. exists 1. split; [lia|]. cbn [siter]. rewrite E. reflexivity. }
  destruct (tact A (hd q loc) a) as [s'|p| |]; [subst r; exact (Hend Hs)| |subst r; exact (Hend Hs)|subst r; exact I].
  destruct (p =? start_prod A); [subst r; exact (Hend Hs)|].
  destruct (Nat.leb_spec (length (rhs A p)) (length loc)) as [Hk|Hk].
  - specialize (IH _ _ H below). destruct r as [|m nt| |]; [| |exact I..].
    + destruct IH as (n & Hn & Hs'). exists (S n). split; [lia|]. cbn [siter]. rewrite Hs. exact Hs'.
    + destruct IH as (Hm & n & Hn & Hs'). split; [exact Hm|]. exists (S n). split; [lia|]. cbn [siter]. rewrite Hs. exact Hs'.
  - subst r. split; [lia|]. exists 0. split; [lia|]. cbn [siter]. rewrite Hs. destruct (esc below _ _); reflexivity.
Qed.

Lemma la_in_all a : la_ok A a -> In a (all_la A).
Proof. apply all_la_in. Qed.

Lemma term_closed a q : la_ok A a -> q < N ->
  match closed A F a q [] with CFuel | CBad => False | _ => True end.
Proof.
  intros Ha Hq. unfold terminates in Hterm. rewrite forallb_forall in Hterm.
  specialize (Hterm a (la_in_all a Ha)). apply andb_true_iff in Hterm as [H1 _].
  rewrite forallb_forall in H1. specialize (H1 q (proj2 (seq_in _ _) Hq)).
  destruct (closed A F a q []) as [|m nt| |]; [exact I|exact I|discriminate..].
Qed.

Lemma term_chain a s0 q : la_ok A a -> s0 < N -> In q (succs A s0) -> chain A C (S N) a s0 q = true.
Proof.
  intros Ha Hs Hq. unfold terminates in Hterm. rewrite forallb_forall in Hterm.
  specialize (Hterm a (la_in_all a Ha)). apply andb_true_iff in Hterm as [_ H2].
  rewrite forallb_forall in H2. specialize (H2 s0 (proj2 (seq_in _ _) Hs)).
  rewrite forallb_forall in H2. exact (H2 q Hq).
Qed.

(* the nonterminal of an escape is a real one, so the goto target is a successor *)
Lemma closed_escape_nt a q : la_ok A a -> forall f loc m nt, Forall (fun s => s < N) (q :: loc) ->
  closed A f a q loc = CEscape m nt -> nt < n_nt A.
Proof.
  intros Ha. induction f as [|f IH]; intros loc m nt Hall H; cbn [closed] in H; [discriminate|].
  destruct (tact A (hd q loc) a) as [s'|p| |] eqn:Et; [discriminate| |discriminate..].
  assert (Hhd : hd q loc < N) by (destruct loc; [exact (Forall_inv Hall)|exact (Forall_inv (Forall_inv_tail Hall))]).
  assert (Hp : p < n_prods A).
  { pose proof (act_ok_of A C Hshape (hd q loc) a Hhd Ha) as Hok. unfold act_ok in Hok. rewrite Et in Hok.
    apply Nat.ltb_lt in Hok. exact Hok. }
  destruct (p =? start_prod A); [discriminate|].
  destruct (length (rhs A p) <=? length loc) eqn:Ek.
  - eapply IH; [|exact H]. constructor; [exact (Forall_inv Hall)|].
    constructor; [apply (goto_lt A C Hshape)|exact (Forall_skipn _ _ _ (Forall_inv_tail Hall))].
  - inversion H; subst. exact (po_lhs A p (sh_prod A C (shape_spec A C Hshape) p Hp)).
Qed.

Lemma goto_in_succs s0 nt : nt < n_nt A -> In (goto_at A s0 nt) (succs A s0).
Proof.
  intros H. unfold succs. apply in_or_app. right. apply in_map_iff. exists nt. split; [reflexivity|apply seq_in; exact H].
Qed.

Lemma slinked_states_lt l : SLinked l -> Forall (fun s => s < N) l.
Proof.
  induction l as [|s' r IH]; intros H; [destruct H|].
  constructor; [exact (slinked_hd_lt A C Hshape (s' :: r) H)|].
  cbn [NoPanic.SLinked] in H. destruct r as [|s r']; [constructor|]. apply IH. apply H.
Qed.

Lemma edge_in_succs s X s' : edge s X s' -> In s' (succs A s).
Proof.
  intros He. destruct He as [s x s' Hx Ha|s B p d Hc Hn].
  - unfold succs. apply in_or_app. left. apply in_flat_map. exists x. split; [apply seq_in; exact Hx|].
    rewrite Ha. left. reflexivity.
  - apply goto_in_succs.
    apply Nat.ltb_lt. exact (po_rhs A p (sh_prod A C (shape_spec A C Hshape) p (core_lt A C Hshape _ _ _ Hc)) (Nt B) (nth_error_In _ _ Hn)).
Qed.

(* [bound] is rounder than what [halts_weight] needs (one level and F + 1 more): [reduce_phase_halts] only has
   to fit under it *)
Definition lvl (h n : nat) : nat := (n + h * (S (S N))) * S F.
Definition bound (len : nat) : nat := lvl len (S N) + S F.

(* The weight of a vector q :: below whose top has n + 1 links of its replacement chain left is
   n + 1 + |below| * (N + 2).  A closed sequence takes at most F + 1 steps; then the phase is over, or
   the top entry has been replaced (one link less), or more than one entry has gone (a lower vector,
   with a fresh chain of N + 1 links): the weight has gone down. *)
Lemma halts_weight a : la_ok A a -> forall w n q below, S n + length below * S (S N) = w ->
  Forall (fun s => s < N) (q :: below) ->
  match below with [] => True | s0 :: _ => chain A C (S n) a s0 q = true end ->
  siter (w * S F) a (q :: below) = None.
Proof.
  intros Ha. induction w as [w IH] using lt_wf_ind. intros n q below Ew Hall Hch.
  cbn [chain] in Hch. unfold repl in Hch.
  pose proof (term_closed a q Ha (Forall_inv Hall)) as Htc.
  pose proof (closed_sim a q F [] _ eq_refl below) as Hsim. cbn [app] in Hsim.
  pose proof (closed_escape_nt a q Ha F [] ) as Hnt.
  assert (Hend : forall k, k <= S F -> siter k a (q :: below) = None -> siter (w * S F) a (q :: below) = None).
  { intros k Hk E. apply (siter_none_le k _ _ _ E). nia. }
  destruct (closed A F a q []) as [|m nt| |]; [|clear Htc|destruct Htc..].
  { (* the phase is over *) destruct Hsim as (k & Hk & Hs). exact (Hend k ltac:(lia) Hs). }
  destruct Hsim as (Hm & k & Hk & Hs). specialize (Hnt m nt ltac:(repeat constructor; exact (Forall_inv Hall)) eq_refl).
  unfold esc in Hs. destruct (Nat.ltb_spec (m - 1) (length below)) as [El|_]; [|exact (Hend (S k) ltac:(lia) Hs)].
  (* the run goes on from q' :: s0' :: rest', of lower weight *)
  destruct (skipn (m - 1) below) as [|s0' rest'] eqn:Eb;
    apply (f_equal (@length _)) in Eb as Elen; rewrite skipn_length in Elen; cbn [length] in Elen; [lia|].
  assert (Hall' : Forall (fun s => s < N) (s0' :: rest')) by (rewrite <- Eb; exact (Forall_skipn _ _ _ (Forall_inv_tail Hall))).
  cbn [hd] in Hs. set (q' := goto_at A s0' nt) in *.
  assert (Hlow : exists n', chain A C (S n') a s0' q' = true /\ S n' + length (s0' :: rest') * S (S N) < w).
  { destruct m as [|[|m]]; [lia| |].
    - cbn [Nat.sub skipn] in Eb. subst below.
      destruct n as [|n]; [discriminate|]. exists n. split; [exact Hch|cbn [length] in *; lia].
    - exists N. split; [apply term_chain; [exact Ha|exact (Forall_inv Hall')|exact (goto_in_succs _ _ Hnt)]|].
      assert (length (s0' :: rest') < length below) by (cbn [length]; lia). nia. }
  destruct Hlow as (n' & Hch' & Hw).
  apply (siter_none_le (S k + (S n' + length (s0' :: rest') * S (S N)) * S F)); [|nia].
  rewrite siter_add, Hs. apply (IH _ Hw n' q' (s0' :: rest') eq_refl); [|exact Hch'].
  constructor; [apply (goto_lt A C Hshape)|exact Hall'].
Qed.

Lemma halts_level : forall h n a q s0 rest, la_ok A a ->
  length (s0 :: rest) = h -> Forall (fun s => s < N) (q :: s0 :: rest) ->
  chain A C n a s0 q = true ->
  siter (lvl h n) a (q :: s0 :: rest) = None.
Proof.
  intros h [|n] a q s0 rest Ha <- Hall Hch; [discriminate|].
  exact (halts_weight a Ha _ n q (s0 :: rest) eq_refl Hall Hch).
Qed.

Theorem reduce_phase_halts a l : la_ok A a -> SLinked l -> siter (bound (length l)) a l = None.
Proof.
  intros Ha HL. pose proof (slinked_states_lt l HL) as Hall. destruct l as [|q r]; [destruct HL|].
  apply (siter_none_le ((S N + length r * S (S N)) * S F)); [|unfold bound, lvl; cbn [length]; nia].
  apply (halts_weight a Ha _ N q r eq_refl Hall). destruct r as [|s0 rest]; [exact I|].
  cbn [NoPanic.SLinked] in HL. destruct HL as [(X & He) _].
  apply term_chain; [exact Ha|exact (Forall_inv (Forall_inv_tail Hall))|exact (edge_in_succs _ _ _ He)].
Qed.
End Term.

(** Part 2: every run on validated tables ends: a budget exists beyond which the answer is never
    "budget exhausted", whatever the input.  The argument is the same with and without error recovery
    up to an error entry of the tables; what happens there is a parameter ([halt_phase]), discharged here
    for tables without recovery and in LR/TerminationRec.v in general. *)
(* Soundness last: [item_ok] in [parser_terminates] is Soundness.item_ok; RecoverySound has a weaker
   one of the same name *)
From LV Require Import LR.Machine LR.Locality LR.RecoverySound LR.Soundness.

Section Run.
Variable A : tables.
Variable C : cert.
Hypothesis Hshape : shape A C = true.
Hypothesis Hexact : exact A C = true.
Hypothesis Hterm : terminates A C = true.
Hypothesis Hnorec : uses_recovery A = false.     (* used by [parser_terminates] only *)
Variable orc : oracle.

Notation core := (core C).
Notation Linked := (Linked A core).
Notation SLinked := (SLinked A C).
Notation L := (L A C).
Notation bnd := (bound A C).

Lemma accepts_halts : forall n l a f, SLinked l -> la_ok A a -> siter A n a l = None -> n <= f ->
  accepts A f l a <> AFuel.
Proof.
  induction n as [|n IH]; intros l a f HL Ha Hs Hf; [discriminate|].
  destruct f as [|f]; [lia|].
  pose proof (accepts_S A C Hshape Hexact f l a HL Ha) as H. cbn [siter] in Hs. unfold sred in Hs.
  destruct (tact A (hd 0 l) a) as [t|p| |]; [rewrite H; discriminate| |rewrite H; discriminate|destruct H].
  destruct (p =? start_prod A); [rewrite H; discriminate|].
  destruct H as (Hlen & HL' & ->). apply Nat.ltb_lt in Hlen. cbv zeta in Hs. rewrite Hlen in Hs.
  apply (IH _ a f HL' Ha Hs). lia.
Qed.

Lemma accepts_bounded l a f : SLinked l -> la_ok A a -> bnd (length l) <= f -> accepts A f l a <> AFuel.
Proof.
  intros HL Ha Hf. exact (accepts_halts _ l a f HL Ha (reduce_phase_halts A C Hshape Hterm a l Ha HL) Hf).
Qed.

Lemma expected_go_halts f l : SLinked l -> bnd (length l) <= f -> forall n i, i + n <= tn_term A ->
  expected_go A f l i n <> EFuel.
Proof.
  intros HL Hf n i Hi E. pose proof (expected_go_spec A f l n i) as H. rewrite E in H. destruct H as (x & Hx & Ha).
  exact (accepts_bounded l (Some x) f HL ltac:(cbn; lia) Hf Ha).
Qed.

Lemma unrec_halts f s tok : Linked (stk s) -> bnd (length (states_of (stk s))) <= f -> unrec_error A f s tok <> RFuel.
Proof.
  intros HL Hf. unfold unrec_error, expected_tokens.
  pose proof (expected_go_halts f _ (slinked_of_linked A C _ HL) Hf (tn_names A) 0) as H.
  destruct (expected_go A f (states_of (stk s)) 0 (tn_names A)) as [exp| |].
  - destruct tok; discriminate.
  - discriminate.
  - exfalso. apply H; [pose proof (names_le A C Hshape); lia|reflexivity].
Qed.

(* f: the budget of the inner loops ([accepts], [pre_reduce], ...); n: the turns of [run].  Kept apart so
   that [halt_cont] can take the larger of two budgets without touching the count. *)
Definition Halt (m : mode) (s : pst) : Prop := exists f n, fst (run A orc f n m s) <> RFuel.

Lemma halt_cont f m s m' s' : step A orc f m s = Cont m' s' -> Halt m' s' -> Halt m s.
Proof.
  intros E (f1 & n1 & H). exists (Nat.max f f1), (S n1). cbn [run].
  rewrite (step_mono_rec A orc f _ (Nat.le_max_l f f1) m s), E by (rewrite E; exact I).
  rewrite (run_mono_rec A orc f1 _ (Nat.le_max_r f f1) n1 n1 (le_n _) m' s' H). exact H.
Qed.

Lemma halt_fin f m s r s' : step A orc f m s = Fin r s' -> r <> RFuel -> Halt m s.
Proof. intros E H. exists f, 1. cbn [run]. rewrite E. exact H. Qed.

Lemma halt_budget m s : Halt m s -> exists n, forall fuel, n <= fuel -> fst (run A orc fuel fuel m s) <> RFuel.
Proof.
  intros (f & n & H). exists (Nat.max f n). intros fuel Hf.
  rewrite (run_mono_rec A orc f fuel ltac:(lia) n fuel ltac:(lia) m s H). exact H.
Qed.

Lemma reduce_cont_sred st a p la_start st' ev : Linked st -> la_ok A a -> tact A (top_state st) a = AReduce p ->
  reduce A orc p la_start st = (RdCont st', ev) -> sred A a (states_of st) = Some (states_of st').
Proof.
  intros HL Ha Ht E. destruct (reduce_spop A C Hshape Hexact orc st a p la_start st' ev HL Ha Ht E) as (Hne & Hlen & ->).
  apply sred_reduce; [rewrite hd_states_of; exact Ht|exact Hne|rewrite length_states_of; lia].
Qed.

Lemma step_phase_L f m s : m <> MNeed -> L m s ->
  match tact A (top_state (stk s)) (mla m) with
  | AShift _ => exists s', step A orc f m s = Cont MNeed s' /\ m <> MEof /\ rest s' = rest s /\ L MNeed s'
  | AReduce _ =>
      (exists r s', step A orc f m s = Fin r s' /\ r <> RFuel) \/
      (exists s', step A orc f m s = Cont m s' /\ rest s' = rest s /\ L m s' /\
                  sred A (mla m) (states_of (stk s)) = Some (states_of (stk s')))
  | AErr => step A orc f m s = after_next m (error_recovery A orc f (mtok m) s)
  | ABad => False
  end.
Proof.
  intros Hm HLs. pose proof (step_L A C Hshape Hexact orc f m s HLs) as Hinv.
  pose proof (L_la_ok A C m s HLs) as Hla. destruct HLs as (HL & _).
  pose proof (tact_ok A C Hshape (stk s) (mla m) HL Hla) as Hok.
  rewrite (step_phase A orc f m s Hm) in *.
  destruct (tact A (top_state (stk s)) (mla m)) as [t|p| |] eqn:Ht.
  - destruct m as [|k i|]; [congruence| |contradiction Hok; reflexivity].
    exists (shifted s k t). split; [reflexivity|]. split; [discriminate|]. split; [reflexivity|exact Hinv].
  - destruct (reduce A orc p _ (stk s)) as [[|r|st'] ev] eqn:E; cbn [after_reduce] in *.
    + left. eexists _, _. split; [reflexivity|discriminate].
    + left. eexists _, _. split; [reflexivity|].
      destruct (reduce_done_cases A orc _ _ _ _ _ E) as [(v & -> & _)|[x ->]]; destruct m; discriminate.
    + right. eexists. split; [reflexivity|]. split; [destruct ev; reflexivity|]. split; [exact Hinv|].
      exact (reduce_cont_sred _ _ _ _ _ _ HL Hla Ht E).
  - reflexivity.
  - exact Hok.
Qed.

Definition NeedBelow (n : nat) : Prop := forall s, L MNeed s -> length (rest s) <= n -> Halt MNeed s.

(** the reductions under one lookahead end (Part 1); so the phase halts if the configurations it can
    hand over to do: reading on after a shift, and what the second premise gives at an error entry.
    ([step] is taken with budget 0: a shift or a reduce turn does not read the budget; only the error entry
    does, and it is treated apart.) *)
Lemma halt_phase m : m <> MNeed ->
  (forall s, L m s -> tact A (top_state (stk s)) (mla m) = AErr ->
             (m <> MEof -> NeedBelow (length (rest s))) -> Halt m s) ->
  forall s, L m s -> (m <> MEof -> NeedBelow (length (rest s))) -> Halt m s.
Proof.
  intros Hm Herr s HLs.
  generalize (reduce_phase_halts A C Hshape Hterm (mla m) _ (L_la_ok A C m s HLs) (slinked_of_linked A C _ (proj1 HLs))).
  generalize (bnd (length (states_of (stk s)))) as n. intros n. revert s HLs.
  induction n as [|n IH]; intros s HLs Hs Hneed; [discriminate|].
  pose proof (step_phase_L 0 m s Hm HLs) as H.
  destruct (tact A (top_state (stk s)) (mla m)) eqn:Ht.
  - destruct H as (s' & E & Hme & Hr & HL'). apply (halt_cont 0 _ _ _ _ E).
    apply (Hneed Hme); [exact HL'|rewrite Hr; apply le_n].
  - destruct H as [(r & s' & E & Hr)|(s' & E & Hr & HL' & Hsr)]; [exact (halt_fin 0 _ _ _ _ E Hr)|].
    apply (halt_cont 0 _ _ _ _ E). cbn [siter] in Hs. rewrite Hsr in Hs.
    apply IH; [exact HL'|exact Hs|rewrite Hr; exact Hneed].
  - exact (Herr s HLs Ht Hneed).
  - destruct H.
Qed.

Lemma halt_need :
  (forall m s, m <> MNeed -> L m s -> (m <> MEof -> NeedBelow (length (rest s))) -> Halt m s) ->
  forall n, NeedBelow n.
Proof.
  intros Hph.
  assert (Hnil : forall s, L MNeed s -> rest s = [] -> Halt MNeed s).
  { intros s HLs Er. pose proof (step_L A C Hshape Hexact orc 0 _ _ HLs) as Hinv.
    rewrite step_need in Hinv. unfold next_token in Hinv. rewrite Er in Hinv.
    apply (halt_cont 0 MNeed s MEof (log s PullEof)); [rewrite step_need; unfold next_token; rewrite Er; reflexivity|].
    apply (Hph MEof); [discriminate|exact Hinv|]. intros H. exfalso. apply H. reflexivity. }
  induction n as [|n IH]; intros s HLs Hlen.
  - apply Hnil; [exact HLs|]. destruct (rest s); [reflexivity|cbn in Hlen; lia].
  - set (f := bnd (length (states_of (stk s)))).
    pose proof (step_L A C Hshape Hexact orc f _ _ HLs) as Hinv.
    assert (E : step A orc f MNeed s = after_next MNeed (next_token A f s)) by apply step_need.
    rewrite E in Hinv. unfold next_token in E, Hinv.
    destruct (rest s) as [|[k|e] r] eqn:Er; [apply Hnil; assumption| |exact (halt_fin f _ _ _ _ E ltac:(discriminate))].
    cbn [length] in Hlen. destruct (tk_idx k) as [i|]; cbn [after_next] in E, Hinv.
    + apply (halt_cont f _ _ _ _ E). apply (Hph (MHave k i)); [discriminate|exact Hinv|].
      intros _ s' HL' Hr'. apply IH; [exact HL'|cbn [rest] in Hr'; lia].
    + apply (halt_fin f _ _ _ _ E). apply unrec_halts; [exact (proj1 HLs)|apply le_n].
Qed.

(** without recovery an error entry ends the run with the expected-token list *)
Theorem parser_terminates (input : list item) : Forall (item_ok A) input ->
  exists n, forall fuel, n <= fuel -> fst (drive A orc fuel input) <> RFuel.
Proof.
  intros Hin. apply halt_budget. apply (halt_need) with (n := length input); [|..|apply le_n].
  - intros m s Hm HLs. apply (halt_phase m Hm); [|exact HLs].
    intros s1 HL1 Ht _. set (f := bnd (length (states_of (stk s1)))).
    pose proof (step_phase_L f m s1 Hm HL1) as E. rewrite Ht, (error_recovery_norec A orc f _ _ Hnorec) in E.
    apply (halt_fin f _ _ _ _ E). apply unrec_halts; [exact (proj1 HL1)|apply le_n].
  - split; [exact I|]. split; [|exact I]. cbn [rest init].
    eapply Forall_impl; [|exact Hin]. intros [k|e]; [|auto]. cbn. unfold tok_ok.
    pose proof (names_le A C Hshape). destruct (tk_idx k); [lia|auto].
Qed.
End Run.
