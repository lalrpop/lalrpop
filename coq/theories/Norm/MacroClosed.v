(** C13: the worklist of macro expansion (model Norm/Macro.v) leaves nothing unexpanded and nothing undefined:
    when [expand] succeeds, every symbol of every resulting definition is flat (no macro use, group or
    repetition remains; only [<..>] selections around flat symbols) and every created nonterminal it
    mentions is defined by one of the resulting items. *)
From Coq Require Import List String.
From LV Require Import Norm.Macro Norm.MacroProps.
Import ListNotations.

Fixpoint flat (s : sym) : Prop :=
  match s with
  | SMacro _ _ | SExpr _ | SRepeat _ _ => False
  | SChoose a => flat a
  | _ => True
  end.

(* the created nonterminals mentioned anywhere in a symbol *)
Fixpoint G (s : sym) : list (list tok) :=
  match s with
  | SGen k => [k]
  | SMacro _ args => (fix go (l : list sym) : list (list tok) := match l with [] => [] | a :: r => G a ++ go r end) args
  | SExpr ss => (fix go (l : list sym) : list (list tok) := match l with [] => [] | a :: r => G a ++ go r end) ss
  | SRepeat a _ => G a
  | SChoose a => G a
  | _ => []
  end.
Definition Gs (l : list sym) : list (list tok) := flat_map G l.
Lemma G_macro n args : G (SMacro n args) = Gs args.
Proof. cbn [G]. unfold Gs. induction args as [|a r IH]; cbn [flat_map]; [reflexivity|]. now rewrite IH. Qed.
(* [G (SExpr ss)] and [G (SMacro _ ss)] unfold to the same term *)
Lemma G_expr ss : G (SExpr ss) = Gs ss.
Proof. exact (G_macro EmptyString ss). Qed.

Lemma incl_app_l {X} (a b c : list X) : incl a b -> incl a (b ++ c).
Proof. apply incl_appl. Qed.
Lemma incl_app_r' {X} (a b c : list X) : incl a c -> incl a (b ++ c).
Proof. apply incl_appr. Qed.

Lemma incl_flat_map {X Y} (f : X -> list Y) l K : Forall (fun a => incl (f a) K) l <-> incl (flat_map f l) K.
Proof.
  induction l as [|a l IH]; cbn [flat_map].
  - split; [intros _; apply incl_nil_l|constructor].
  - split.
    + intros H. inversion H; subst. apply incl_app; [assumption|apply IH; assumption].
    + intros H. apply incl_app_inv in H as [Ha Hl]. constructor; [exact Ha|apply IH; exact Hl].
Qed.

(** the state only grows: symbols are pushed together with their keys; what a pushed symbol mentions
    is already known (seen, or in the base set B of names defined elsewhere) *)
Definition Ext (B : list (list tok)) (x x' : st) : Prop :=
  exists pushed, stack x' = pushed ++ stack x /\ seen x' = map canon pushed ++ seen x /\
                 Forall (fun s0 => incl (G s0) (seen x' ++ B)) pushed.

Lemma Ext_refl B x : Ext B x x.
Proof. exists []. repeat split; constructor. Qed.

Lemma Ext_known B x x' : Ext B x x' -> incl (seen x ++ B) (seen x' ++ B).
Proof. intros (p & _ & K & _). rewrite K. apply incl_app_app; [apply incl_appr|]; apply incl_refl. Qed.

Lemma Ext_trans B x x1 x2 : Ext B x x1 -> Ext B x1 x2 -> Ext B x x2.
Proof.
  intros (p1 & S1 & K1 & F1) E2. pose proof (Ext_known _ _ _ E2) as Hk. destruct E2 as (p2 & S2 & K2 & F2).
  exists (p2 ++ p1). split; [|split].
  - rewrite S2, S1, app_assoc. reflexivity.
  - rewrite K2, K1, map_app, app_assoc. reflexivity.
  - apply Forall_app. split; [exact F2|].
    eapply Forall_impl; [|exact F1]. intros s0 H. exact (incl_tran H Hk).
Qed.

Lemma key_eqb_eq a b : key_eqb a b = true -> a = b.
Proof. unfold key_eqb. destruct (list_eq_dec _ a b); [auto|discriminate]. Qed.

(* what a pass promises of its result [r], started in state [x0]: it satisfies [Q], mentions only names seen by
   then or in B, and the state has only grown *)
Definition post {Y} (Q : Y -> Prop) (GY : Y -> list (list tok)) B (x0 : st) (r : Y * st) : Prop :=
  Q (fst r) /\ incl (GY (fst r)) (seen (snd r) ++ B) /\ Ext B x0 (snd r).

(* [forall x, incl (G s) B -> post flat G B x (replace s x)], written out *)
Definition rspec (B : list (list tok)) (s : sym) : Prop :=
  forall x, incl (G s) B ->
    flat (fst (replace s x)) /\ incl (G (fst (replace s x))) (seen (snd (replace s x)) ++ B) /\ Ext B x (snd (replace s x)).

Lemma post_nil {Y} (Q : Y -> Prop) GY B x : post (Forall Q) (flat_map GY) B x ([], x).
Proof. repeat split; [constructor|apply incl_nil_l|apply Ext_refl]. Qed.

Lemma post_cons {Y} (Q : Y -> Prop) GY B x a x1 r x2 :
  post Q GY B x (a, x1) -> post (Forall Q) (flat_map GY) B x1 (r, x2) -> post (Forall Q) (flat_map GY) B x (a :: r, x2).
Proof.
  intros (Q1 & G1 & E1) (Q2 & G2 & E2). split; [constructor; assumption|]. split; [|exact (Ext_trans _ _ _ _ E1 E2)].
  exact (incl_app (incl_tran G1 (Ext_known _ _ _ E2)) G2).
Qed.

Lemma note_post B s x0 x : incl (G s) (seen x ++ B) -> Ext B x0 x -> post flat G B x0 (note s x).
Proof.
  intros HG E. unfold note, post. cbn [fst snd flat G]. split; [exact I|].
  destruct (existsb (key_eqb (canon s)) (seen x)) eqn:Es.
  - (* the key is known: nothing pushed *)
    split; [|exact E]. apply existsb_exists in Es as (k & Hk & He). apply key_eqb_eq in He as <-.
    apply incl_cons; [apply in_or_app; left; exact Hk|apply incl_nil_l].
  - (* a new key: the symbol is pushed *)
    split; [apply incl_cons; [left; reflexivity|apply incl_nil_l]|]. apply (Ext_trans _ _ _ _ E).
    exists [s]. repeat split. constructor; [|constructor]. exact (incl_tran HG (incl_tl _ (incl_refl _))).
Qed.

Lemma replace_list_rspec B l : Forall (rspec B) l -> forall x, incl (Gs l) B -> post (Forall flat) Gs B x (replace_list l x).
Proof.
  induction 1 as [|a l Ha Hl IH]; intros x HG; [apply post_nil|].
  cbn [replace_list]. apply incl_app_inv in HG as [HGa HGl].
  pose proof (Ha x HGa) as H1. destruct (replace a x) as [a' x1].
  pose proof (IH x1 HGl) as H2. destruct (replace_list l x1) as [r' x2]. exact (post_cons _ _ _ _ _ _ _ _ H1 H2).
Qed.

(* [replace] on a macro use or a group [mk args]: the pass it runs over [args] is [replace_list] *)
Lemma replace_args_post B (mk : list sym -> sym) args x : (forall l, G (mk l) = Gs l) ->
  Forall (rspec B) args -> incl (Gs args) B ->
  post flat G B x (let '(args', x') := replace_list args x in note (mk args') x').
Proof.
  intros Hmk IH HG. destruct (replace_list_rspec B args IH x HG) as (_ & G1 & E1).
  destruct (replace_list args x) as [args' x1]. apply note_post; [rewrite Hmk; exact G1|exact E1].
Qed.

Lemma replace_spec B s : rspec B s.
Proof.
  induction s as [y|y|y|m args IH|ss IH|a o IH|a IH| |k] using sym_ind'; intros x HG;
    try (cbn [replace fst snd flat G]; repeat split; [apply incl_nil_l|apply Ext_refl]).
  - rewrite G_macro in HG. exact (replace_args_post B (SMacro m) args x (G_macro m) IH HG).
  - rewrite G_expr in HG. exact (replace_args_post B SExpr ss x G_expr IH HG).
  - (* SRepeat *) cbn [replace]. destruct (IH x HG) as (_ & G1 & E1). destruct (replace a x) as [a' x1].
    apply note_post; [exact G1|exact E1].
  - (* SChoose *) cbn [replace]. destruct (IH x HG) as (F1 & G1 & E1). destruct (replace a x) as [a' x1]. repeat split; assumption.
  - (* SGen *) cbn [replace fst snd flat G]. repeat split; [exact (incl_tran HG (incl_appr _ (incl_refl _)))|apply Ext_refl].
Qed.

Definition Ga (alts : list (list sym)) : list (list tok) := flat_map Gs alts.
Definition flat_alts (alts : list (list sym)) : Prop := Forall (Forall flat) alts.

Lemma replace_alts_spec B : forall l x, incl (Ga l) B -> post flat_alts Ga B x (replace_alts l x).
Proof.
  induction l as [|a l IH]; intros x HG; [apply post_nil|].
  cbn [replace_alts]. apply incl_app_inv in HG as [HGa HGl].
  pose proof (replace_list_rspec B a (proj2 (Forall_forall _ _) (fun s _ => replace_spec B s)) x HGa) as H1.
  destruct (replace_list a x) as [a' x1].
  pose proof (IH x1 HGl) as H2. destruct (replace_alts l x1) as [r' x2]. exact (post_cons _ _ _ _ _ _ _ _ H1 H2).
Qed.

Definition ikey (it : item) : list tok := fst (fst it).
Definition ialts (it : item) : list (list sym) := snd it.
Definition keys (l : list item) : list (list tok) := map ikey l.
Definition Gi (l : list item) : list (list tok) := flat_map (fun it => Ga (ialts it)) l.
Definition closed (K : list (list tok)) (it : item) : Prop := flat_alts (ialts it) /\ incl (Ga (ialts it)) K.

Lemma closed_mono K K' it : incl K K' -> closed K it -> closed K' it.
Proof. intros H [F Gc]. split; [exact F|exact (incl_tran Gc H)]. Qed.

Lemma replace_items_spec B : forall l x, incl (Gi l) B ->
  keys (fst (replace_items l x)) = keys l /\
  post (Forall (fun it => flat_alts (ialts it))) Gi B x (replace_items l x).
Proof.
  induction l as [|[[n k] alts] l IH]; intros x HG; [split; [reflexivity|apply post_nil]|].
  cbn [replace_items]. apply incl_app_inv in HG as [HGa HGl].
  pose proof (replace_alts_spec B alts x HGa) as H1. destruct (replace_alts alts x) as [alts' x1].
  destruct (IH x1 HGl) as [K2 H2]. destruct (replace_items l x1) as [r' x2].
  split; [cbn; f_equal; exact K2|].
  exact (post_cons (fun it : item => flat_alts (ialts it)) (fun it => Ga (ialts it)) B x (n, k, alts') x1 r' x2 H1 H2).
Qed.

Lemma lookup_in {X} n (l : list (string * X)) a : lookup n l = Some a -> In a (map snd l).
Proof.
  induction l as [|[m x] r IH]; cbn [lookup]; [discriminate|].
  destruct (String.eqb n m); [intros H; inversion H; left; reflexivity|intros H; right; exact (IH H)].
Qed.

Lemma Gs_map_subst_F env l : Forall (fun s => incl (G (subst env s)) (G s ++ flat_map G (map snd env))) l ->
  incl (Gs (map (subst env) l)) (Gs l ++ flat_map G (map snd env)).
Proof.
  induction 1 as [|a l Ha Hl IH]; [apply incl_nil_l|]. unfold Gs in *. cbn [map flat_map]. rewrite <- app_assoc.
  apply incl_app; [|exact (incl_tran IH (incl_appr _ (incl_refl _)))].
  apply (incl_tran Ha), incl_app; [apply incl_appl, incl_refl|apply incl_appr, incl_appr, incl_refl].
Qed.

Lemma subst_G env : forall s, incl (G (subst env s)) (G s ++ flat_map G (map snd env)).
Proof.
  induction s as [y|y|y|m args IH|ss IH|a o IH|a IH| |k] using sym_ind'; cbn [subst]; try (apply incl_appl, incl_refl).
  - (* SId: a parameter is replaced by its argument *)
    destruct (lookup y env) as [a|] eqn:E; [|apply incl_nil_l].
    intros k0 Hk. apply in_flat_map. exists a. split; [exact (lookup_in _ _ _ E)|exact Hk].
  - rewrite !G_macro. exact (Gs_map_subst_F env args IH).
  - rewrite !G_expr. exact (Gs_map_subst_F env ss IH).
  - (* SRepeat *) exact IH.
  - (* SChoose *) exact IH.
Qed.

Lemma Gs_map_subst env ss : incl (Gs (map (subst env) ss)) (Gs ss ++ flat_map G (map snd env)).
Proof. apply Gs_map_subst_F, Forall_forall. intros s _. apply subst_G. Qed.

Section Step.
Variable re_match : string -> string -> bool.
Variable defs : list (string * mdef).
(* the macro definitions are source text: they mention no created nonterminal *)
Hypothesis defs_src : forall n d, lookup n defs = Some d -> forall c ss, In (c, ss) (m_alts d) -> Gs ss = [].

Lemma keep_alts_G env l : (forall c ss, In (c, ss) l -> Gs ss = []) ->
  forall i ks alts, keep_alts re_match env i l = Some (ks, alts) -> incl (Ga alts) (flat_map G (map snd env)).
Proof.
  induction l as [|[c ss] r IH]; intros Hsrc i ks alts H; cbn [keep_alts] in H; [inversion H; apply incl_nil_l|].
  specialize (IH (fun c' ss' Hi => Hsrc c' ss' (or_intror Hi))).
  (* the condition holds: the alternative is kept; it does not: dropped; it is ill-formed: no result *)
  destruct (eval_cond re_match env c); [|exact (IH _ _ _ H)|discriminate].
  destruct (keep_alts re_match env (S i) r) as [[ks' as']|] eqn:E; [|discriminate]. inversion H; subst.
  apply incl_app; [|exact (IH _ _ _ E)].
  apply (incl_tran (Gs_map_subst env ss)). rewrite (Hsrc c ss (or_introl eq_refl)). apply incl_refl.
Qed.

Lemma expand1_spec s k alts : expand1 re_match defs s = XOk k alts -> incl (Ga alts) (canon s :: G s).
Proof.
  destruct s as [y|y|y|n args|ss|a o|a| |kk]; cbn [expand1]; try discriminate.
  - (* SMacro *) destruct (lookup n defs) as [d|] eqn:El; [|discriminate].
    destruct (negb (Nat.eqb (List.length (m_params d)) (List.length args))); [discriminate|].
    destruct (keep_alts re_match (combine (m_params d) args) 0 (m_alts d)) as [[ks as_]|] eqn:Ek; [|discriminate].
    intros H. inversion H; subst. rewrite G_macro. apply incl_tl, (incl_tran (keep_alts_G _ _ (defs_src n d El) _ _ _ Ek)).
    intros g Hg. apply in_flat_map in Hg as (y & Hy & Hg). apply in_map_iff in Hy as ([p0 y0] & <- & Hy).
    apply in_flat_map. exists y0. split; [exact (in_combine_r _ _ _ _ Hy)|exact Hg].
  - intros H. inversion H; subst. unfold Ga. cbn [flat_map]. rewrite app_nil_r, G_expr. apply incl_tl, incl_refl.
  - (* SRepeat *) destruct o; intros H; inversion H; subst; unfold Ga, Gs; cbn [flat_map G app]; rewrite ?app_nil_r.
    + (* Star *) apply incl_tl, incl_refl.
    + (* Plus: its second alternative mentions its own key *) apply incl_app; [apply incl_tl, incl_refl|apply incl_refl].
    + (* Question *) apply incl_tl, incl_refl.
Qed.

Lemma drain_spec : forall stk new, drain re_match defs stk = inl (Some new) ->
  keys new = map canon stk /\ incl (Gi new) (map canon stk ++ Gs stk).
Proof.
  induction stk as [|s r IH]; intros new H; cbn [drain] in H.
  - inversion H; subst. split; [reflexivity|apply incl_nil_l].
  - destruct (expand1 re_match defs s) as [k alts|m] eqn:E; [|discriminate].
    destruct (drain re_match defs r) as [[l|]|m] eqn:Ed; [|discriminate|discriminate].
    inversion H; subst. destruct (IH l eq_refl) as [K1 G1].
    split; [cbn; f_equal; exact K1|].
    unfold Gi, Gs in *. cbn [flat_map ialts snd map]. apply incl_app.
    + apply (incl_tran (expand1_spec _ _ _ E)), incl_cons; [left; reflexivity|]. apply incl_tl, incl_appr, incl_appl, incl_refl.
    + apply (incl_tran G1), incl_tl, incl_app_app; [apply incl_refl|apply incl_appr, incl_refl].
Qed.

Lemma rounds_unfold limit done fresh sn :
  rounds re_match defs limit done fresh sn =
  let '(fresh', x) := replace_items fresh {| seen := sn; stack := [] |} in
  match stack x with
  | [] => EOk (done ++ fresh')
  | _ => match limit with
         | O => ERecursion
         | S lim => match drain re_match defs (stack x) with
                    | inr m => EError m
                    | inl None => EError 0
                    | inl (Some new) => rounds re_match defs lim (done ++ fresh') new (seen x)
                    end
         end
  end.
Proof. destruct limit; reflexivity. Qed.

(* the invariant of [rounds]: the finished items are closed over the keys so far; the fresh items and the keys seen
   mention only those keys *)
Definition RInv (done fresh : list item) (sn : list (list tok)) : Prop :=
  Forall (closed (keys (done ++ fresh))) done /\ incl (Gi fresh) (keys (done ++ fresh)) /\ incl sn (keys (done ++ fresh)).

Lemma round_step limit done fresh sn items : RInv done fresh sn ->
  rounds re_match defs limit done fresh sn = EOk items ->
  Forall (closed (keys items)) items \/
  exists lim done' new sn', limit = S lim /\ RInv done' new sn' /\ rounds re_match defs lim done' new sn' = EOk items.
Proof.
  intros (Hd & Hf & Hs) H. rewrite rounds_unfold in H. set (K := keys (done ++ fresh)) in *.
  destruct (replace_items_spec K fresh {| seen := sn; stack := [] |} Hf) as (K1 & F1 & G1 & pushed & S1 & Kx & Fp).
  destruct (replace_items fresh _) as [fresh' x]. cbn [fst snd stack seen] in *. rewrite app_nil_r in S1. subst pushed.
  apply incl_flat_map in G1. pose proof (Forall_and F1 G1 : Forall (closed (seen x ++ K)) fresh') as C1.
  assert (Hk : keys (done ++ fresh') = K) by (unfold K, keys in *; rewrite !map_app, K1; reflexivity).
  (* the names known after the round are the keys so far and those of the pushed symbols, which the
     next round defines; with nothing pushed these are the keys so far *)
  assert (Hx : incl (seen x ++ K) (K ++ map canon (stack x))).
  { rewrite Kx. apply incl_app; [apply incl_app|].
    - (* the keys pushed in this round *) apply incl_appr, incl_refl.
    - (* seen before *) apply incl_appl, Hs.
    - (* K *) apply incl_appl, incl_refl. }
  assert (Hall : Forall (closed (K ++ map canon (stack x))) (done ++ fresh')).
  { apply Forall_app. split.
    - (* done *) eapply Forall_impl; [|exact Hd]. intros it. apply closed_mono, incl_appl, incl_refl.
    - (* fresh' *) eapply Forall_impl; [|exact C1]. intros it. apply closed_mono, Hx. }
  destruct (stack x) as [|s0 r0] eqn:Es.
  - (* nothing pushed: finished *) left. inversion H; subst items. rewrite Hk. rewrite app_nil_r in Hall. exact Hall.
  - (* another round, on what [drain] makes of the pushed symbols *)
    right. rewrite <- Es in *. clear Es. destruct limit as [|lim]; [discriminate|].
    destruct (drain re_match defs (stack x)) as [[new|]|m] eqn:Ed; [|discriminate|discriminate].
    exists lim, (done ++ fresh'), new, (seen x). split; [reflexivity|]. split; [|exact H].
    destruct (drain_spec _ _ Ed) as [Kn Gn]. unfold RInv, keys in *. rewrite map_app, Hk, Kn. split; [|split].
    + (* what is done is closed *) exact Hall.
    + (* the new items mention their own keys and what the pushed symbols mention *)
      apply (incl_tran Gn), incl_app; [apply incl_appr, incl_refl|].
      apply incl_flat_map. eapply Forall_impl; [|exact Fp]. intros s1 H1. exact (incl_tran H1 Hx).
    + (* the names seen *) exact (incl_tran (incl_appl _ (incl_refl _)) Hx).
Qed.

Theorem rounds_closed : forall limit done fresh sn items,
  Forall (closed (keys (done ++ fresh))) done -> incl (Gi fresh) (keys (done ++ fresh)) -> incl sn (keys (done ++ fresh)) ->
  rounds re_match defs limit done fresh sn = EOk items -> Forall (closed (keys items)) items.
Proof.
  (* a round finishes, or goes on with a smaller limit ([round_step]) *)
  induction limit as [|lim IH]; intros done fresh sn items Hd Hf Hs H;
    destruct (round_step _ _ _ _ _ (conj Hd (conj Hf Hs)) H) as [Hfin|(lim' & done' & new & sn' & El & (Hd' & Hf' & Hs') & H')].
  - exact Hfin.
  - discriminate El.
  - exact Hfin.
  - injection El as <-. exact (IH _ _ _ _ Hd' Hf' Hs' H').
Qed.

(** the result of a successful expansion is closed: every definition is flat and mentions only created
    nonterminals that are defined in the result *)
Theorem expand_closed limit user items :
  (forall u alt, In u user -> In alt (snd u) -> Gs alt = []) ->
  expand re_match defs limit user = EOk items -> Forall (closed (keys items)) items.
Proof.
  intros Hu H. unfold expand in H.
  apply (rounds_closed limit [] (map (fun u : string * list (list sym) => ([KId (fst u)], KMacro "" [], snd u)) user) [] items); [constructor| |apply incl_nil_l|exact H].
  apply incl_flat_map, Forall_forall. intros it Hit. apply in_map_iff in Hit as (u & <- & Hu').
  apply incl_flat_map, Forall_forall. intros alt Halt. cbn [ialts snd] in Halt. rewrite (Hu u alt Hu' Halt). apply incl_nil_l.
Qed.
End Step.

(** non-vacuity: S = Comma<"a"> | "x" Comma<"a">  with  Comma<T> = (<T> ",")* T?  expands to six
    definitions (S, the macro instance shared by both uses, the group, its *, its + and "a"?) *)
Local Open Scope string_scope.
Example comma_expands :
  let defs := [("Comma", {| m_params := ["T"]; m_alts := [(None, [SRepeat (SExpr [SChoose (SId "T"); SLit ","]) Star; SRepeat (SId "T") Question])] |})] in
  let user := [("S", [[SMacro "Comma" [SLit "a"]]; [SLit "x"; SMacro "Comma" [SLit "a"]]])] in
  exists items, expand (fun _ _ => false) defs 10 user = EOk items /\ List.length items = 6.
Proof. cbv zeta. eexists. split; [vm_compute; reflexivity|reflexivity]. Qed.
