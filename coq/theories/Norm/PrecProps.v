(** C12, C18: the expansion performed by normalize/precedence is the documented tiered grammar, and it cannot
    reach its [expect] once prevalidate's rule holds. *)
From Coq Require Import List Arith Lia.
From LV Require Import Norm.Prec.
Import ListNotations.

(* the forward pass in the state it has reached after [k] occurrences *)
Definition fwd_state (lvl p : nat) (a : assoc) (k : nat) : subst :=
  match a with
  | AAll => Every (OTier lvl)
  | ALeft => if Nat.eqb k 0 then OneThen (OTier lvl) (OTier p) else Every (OTier p)
  | _ => Every (OTier p)
  end.

Lemma fwd_spec lvl p a n l k : a <> ARight ->
  replace_fwd (fwd_state lvl p a k) l = spec_syms lvl p a k n l.
Proof.
  intros Ha. revert k. induction l as [|[|i] l IH]; intros k; cbn [replace_fwd spec_syms]; [reflexivity| |f_equal; apply IH].
  rewrite <- (IH (S k)). destruct a.
  - destruct k; reflexivity.
  - contradiction Ha. reflexivity.
  - reflexivity.
  - reflexivity.
Qed.

Lemma fwd_snoc s l x : replace_fwd s (l ++ [x]) = replace_fwd s l ++
  [match x, s with
   | POther i, _ => OOther i
   | PSelf, Every t => t
   | PSelf, OneThen a b => if Nat.eqb (count_self l) 0 then a else b
   end].
Proof.
  revert s. induction l as [|[|i] l IH]; intros s; cbn [app replace_fwd count_self].
  - destruct x, s; reflexivity.
  - destruct s as [t|a b]; cbn [app]; f_equal; rewrite IH; destruct x; reflexivity.
  - f_equal. apply IH.
Qed.

Lemma count_self_app l1 l2 : count_self (l1 ++ l2) = count_self l1 + count_self l2.
Proof. induction l1 as [|[|i] l1 IH]; cbn [app count_self]; lia. Qed.

Lemma count_self_rev l : count_self (rev l) = count_self l.
Proof.
  induction l as [|x l IH]; [reflexivity|]. cbn [rev]. rewrite count_self_app, IH.
  destruct x; cbn [count_self]; lia.
Qed.

(* the backward pass read forwards: the head is the last occurrence iff none follows it *)
Lemma bwd_cons a b x l :
  replace_bwd (OneThen a b) (x :: l) =
  match x with
  | POther i => OOther i
  | PSelf => if Nat.eqb (count_self l) 0 then a else b
  end :: replace_bwd (OneThen a b) l.
Proof.
  unfold replace_bwd. cbn [rev]. rewrite fwd_snoc, rev_app_distr, count_self_rev. destruct x; reflexivity.
Qed.

Lemma bwd_right lvl p k l :
  replace_bwd (OneThen (OTier lvl) (OTier p)) l = spec_syms lvl p ARight k (k + count_self l) l.
Proof.
  revert k. induction l as [|x l IH]; intros k; [reflexivity|].
  rewrite bwd_cons. destruct x as [|i]; cbn [spec_syms count_self].
  - f_equal.
    + destruct (Nat.eqb_spec (count_self l) 0) as [E|E].
      * rewrite E. replace (k + 1) with (S k) by lia. rewrite Nat.eqb_refl. reflexivity.
      * destruct (Nat.eqb_spec (S k) (k + S (count_self l))); [lia|reflexivity].
    + rewrite (IH (S k)). f_equal. lia.
  - f_equal. apply IH.
Qed.

(* with no tighter level only `all` avoids the panic, and `all` does not look at it: [lvl] stands in *)
Definition spec_alt (lvl : nat) (prev : option nat) (a : assoc) (syms : list psym) : list osym :=
  spec_syms lvl (match prev with Some p => p | None => lvl end) a 0 (count_self syms) syms.

Definition spec_level (ras : list (nat * assoc * list psym)) (prev : option nat) (lvl : nat) :=
  (lvl, map (fun x => spec_alt lvl prev (snd (fst x)) (snd x))
            (filter (fun a => Nat.eqb (fst (fst a)) lvl) ras)
        ++ match prev with Some p => [[OTier p]] | None => [] end).

Fixpoint spec_levels (ras : list (nat * assoc * list psym)) (prev : option nat) (lvls : list nat) :=
  match lvls with
  | [] => []
  | l :: r => spec_level ras prev l :: spec_levels ras (Some l) r
  end.

Definition spec_expand (alts : list palt) :=
  let ras := resolve 0 AAll alts in spec_levels ras None (levels ras).

(* what a pass returns: [Ok x], unless [P], when it panics *)
Inductive unless {X} (P : Prop) (x : X) : res X -> Prop :=
| U_ok : ~ P -> unless P x (Ok x)
| U_panic : P -> unless P x Panic.

Lemma unless_ok {X} P (x : X) r y : unless P x r -> r = Ok y -> y = x.
Proof. intros [_|_] E; [injection E as <-; reflexivity|discriminate]. Qed.

Lemma unless_panic {X} P (x : X) r : unless P x r -> (r = Panic <-> P).
Proof.
  intros [N|H]; split.
  - (* Ok *) discriminate.
  - intros H. destruct (N H).
  - (* Panic *) intros _. exact H.
  - reflexivity.
Qed.

Lemma unless_iff {X} P Q (x : X) r : unless P x r -> (P <-> Q) -> unless Q x r.
Proof. intros [N|H] E; constructor; tauto. Qed.

Lemma unless_ok_eq {X} P (x y : X) : ~ P -> y = x -> unless P x (Ok y).
Proof. intros N ->. exact (U_ok _ _ N). Qed.

Lemma expand_alt_unless lvl prev a syms :
  unless (prev = None /\ a <> AAll) (spec_alt lvl prev a syms) (expand_alt lvl prev a syms).
Proof.
  unfold expand_alt, spec_alt. destruct a, prev as [p|].
  - apply unless_ok_eq; [intros [E _]; discriminate E|]. apply (fwd_spec lvl p ALeft _ _ 0); discriminate.
  - apply U_panic. split; [reflexivity|discriminate].
  - apply unless_ok_eq; [intros [E _]; discriminate E|]. apply (bwd_right lvl p 0).
  - apply U_panic. split; [reflexivity|discriminate].
  - apply unless_ok_eq; [intros [E _]; discriminate E|]. apply (fwd_spec lvl p ANone _ _ 0); discriminate.
  - apply U_panic. split; [reflexivity|discriminate].
  - (* all, with a tighter level; without one, the last case *)
    apply unless_ok_eq; [intros [E _]; discriminate E|]. apply (fwd_spec lvl p AAll _ _ 0); discriminate.
  - apply unless_ok_eq; [intros [_ N]; exact (N eq_refl)|]. apply (fwd_spec lvl lvl AAll _ _ 0); discriminate.
Qed.

Lemma collect_unless {X Y} (f : Y -> res X) (g : Y -> X) (P : Y -> Prop) l :
  (forall y, unless (P y) (g y) (f y)) -> unless (exists y, In y l /\ P y) (map g l) (collect (map f l)).
Proof.
  intros Hf. induction l as [|y l IH]; cbn [map collect].
  - apply U_ok. intros (y & [] & _).
  - destruct (Hf y) as [Ny|Hy].
    + destruct IH as [Nl|(z & Hz & Pz)].
      * (* neither the head nor the tail panics *)
        apply U_ok. intros (z & [<-|Hz] & Pz); [exact (Ny Pz)|apply Nl; eauto].
      * (* the tail panics *) apply U_panic. exists z. split; [right; exact Hz|exact Pz].
    + (* the head panics *) apply U_panic. exists y. split; [left; reflexivity|exact Hy].
Qed.

Lemma expand_level_unless ras prev lvl :
  unless (prev = None /\ exists x, In x ras /\ fst (fst x) = lvl /\ snd (fst x) <> AAll)
         (spec_level ras prev lvl) (expand_level ras prev lvl).
Proof.
  unfold expand_level, spec_level.
  destruct (collect_unless _ _ _ (filter (fun a => fst (fst a) =? lvl) ras)
              (fun x => expand_alt_unless lvl prev (snd (fst x)) (snd x))) as [N|(x & Hx & Hp & Ha)].
  - apply U_ok. intros [Hp (x & Hx & Hl & Ha)]. apply N. exists x. rewrite filter_In, Nat.eqb_eq. auto.
  - apply U_panic. apply filter_In in Hx as [Hx Hl]. apply Nat.eqb_eq in Hl. eauto 6.
Qed.

(* only the first level has no tighter one *)
Lemma expand_levels_unless ras lvls : forall prev,
  unless (match lvls with
          | [] => False
          | l :: _ => prev = None /\ exists x, In x ras /\ fst (fst x) = l /\ snd (fst x) <> AAll
          end) (spec_levels ras prev lvls) (expand_levels ras prev lvls).
Proof.
  induction lvls as [|l lvls IH]; intros prev; cbn [expand_levels spec_levels]; [apply U_ok; auto|].
  destruct (expand_level_unless ras prev l) as [N|H]; [|apply U_panic; exact H].
  destruct (IH (Some l)) as [_|H]; [apply U_ok; exact N|].
  (* a later level has a tighter one: no panic there *)
  destruct lvls; [destruct H|destruct H as [H _]; discriminate].
Qed.

Lemma insert_sorted_in x y l : In y (insert_sorted x l) <-> y = x \/ In y l.
Proof.
  induction l as [|z l IH]; cbn [insert_sorted].
  - split; intros [->|[]]; left; reflexivity.
  - destruct (Nat.ltb_spec x z); [|destruct (Nat.eqb_spec x z) as [->|_]].
    + (* x < z: put in front *) split; (intros [->|H']; [left; reflexivity|right; exact H']).
    + (* x = z: already there *) split; [right; assumption|intros [->|H']; [left; reflexivity|exact H']].
    + (* z < x: further down *) cbn [In]. rewrite IH. split; intros [H'|[H'|H']]; auto.
Qed.

Lemma levels_in ras l : In l (levels ras) <-> exists x, In x ras /\ fst (fst x) = l.
Proof.
  unfold levels. induction ras as [|a ras IH]; cbn [fold_right].
  - split; [intros []|intros (x & [] & _)].
  - rewrite insert_sorted_in, IH. split.
    + intros [->|(x & Hx & E)]; [exists a; split; [left|]; reflexivity|exists x; split; [right|]; assumption].
    + intros (x & [->|Hx] & E); [left; symmetry; exact E|right; exists x; split; assumption].
Qed.

Fixpoint increasing (l : list nat) : Prop :=
  match l with
  | [] => True
  | x :: r => (match r with y :: _ => x < y | [] => True end) /\ increasing r
  end.

Lemma insert_sorted_increasing x l : increasing l -> increasing (insert_sorted x l).
Proof.
  induction l as [|y l IH]; intros H; cbn [insert_sorted].
  - simpl. auto.
  - destruct (Nat.ltb_spec x y) as [Hxy|Hyx]; [simpl; split; [exact Hxy|exact H]|].
    destruct (Nat.eqb_spec x y); [exact H|].
    destruct H as [Hy Hl]. specialize (IH Hl). cbn [increasing]. split; [|exact IH].
    destruct l as [|z l]; cbn [insert_sorted] in *; [lia|].
    destruct (Nat.ltb_spec x z); [lia|]. destruct (Nat.eqb_spec x z); lia.
Qed.

Lemma levels_increasing ras : increasing (levels ras).
Proof.
  unfold levels. induction ras as [|a ras IH]; cbn [fold_right]; [exact I|].
  apply insert_sorted_increasing. exact IH.
Qed.

(* the whole pass: the documented tiers, unless an associativity is in force at the first level *)
Theorem expand_unless alts :
  unless (exists x, In x (resolve 0 AAll alts) /\ fst (fst x) = hd 0 (levels (resolve 0 AAll alts)) /\ snd (fst x) <> AAll)
         (spec_expand alts) (expand alts).
Proof.
  unfold expand, spec_expand. cbv zeta. set (ras := resolve 0 AAll alts).
  apply (unless_iff _ _ _ _ (expand_levels_unless ras (levels ras) None)).
  destruct (levels ras) as [|l lvls] eqn:El; cbn [hd]; [|tauto].
  split; [intros []|]. intros (x & Hx & _).
  assert (In (fst (fst x)) (levels ras)) by (apply levels_in; eauto). rewrite El in H. destruct H.
Qed.

Lemma resolve_cons ll la a r :
  resolve ll la (a :: r) =
  let lvl := match p_prec a with Some l => l | None => ll end in
  let asc := match p_assoc a with
             | Some x => x
             | None => match p_prec a with Some _ => AAll | None => la end
             end in
  (lvl, asc, p_syms a) :: resolve lvl asc r.
Proof. cbn [resolve]. destruct (p_prec a); reflexivity. Qed.

(* an associativity other than `all` is in force only by inheritance from an explicit attribute at the same level *)
Lemma resolve_origin alts : forall ll la x,
  In x (resolve ll la alts) -> snd (fst x) <> AAll ->
  (fst (fst x) = ll /\ la <> AAll) \/ In (fst (fst x), true) (explicit ll alts).
Proof.
  induction alts as [|a alts IH]; intros ll la x Hin Hne; [destruct Hin|].
  rewrite resolve_cons in Hin. cbn [explicit]. destruct Hin as [<-|Hin]; cbn [fst snd] in *.
  - (* the head *)
    destruct (p_assoc a); [right; left; reflexivity|]. destruct (p_prec a); [contradiction Hne; reflexivity|left; auto].
  - (* in the tail: inherited from the head's level, or explicit further down *)
    destruct (IH _ _ _ Hin Hne) as [[E Hla]|H]; [rewrite E|right; right; exact H].
    destruct (p_assoc a); [right; left; reflexivity|]. destruct (p_prec a); [contradiction Hla; reflexivity|left; auto].
Qed.

(* validate_precedence (after the repair): no alternative whose effective level is the minimum
   carries an assoc attribute *)
Definition prevalid (alts : list palt) : Prop :=
  forall l, In (l, true) (explicit 0 alts) -> l <> hd 0 (levels (resolve 0 AAll alts)).

Lemma prevalidb_spec alts : prevalidb alts = true <-> prevalid alts.
Proof.
  unfold prevalidb, prevalid. cbv zeta. rewrite forallb_forall. split.
  - intros H l Hin E. specialize (H _ Hin). cbn [fst snd] in H. rewrite E, Nat.eqb_refl in H. discriminate.
  - intros H [l b] Hin. cbn [fst snd]. destruct b; [|reflexivity].
    destruct (Nat.eqb_spec l (hd 0 (levels (resolve 0 AAll alts)))) as [E|E]; [|reflexivity].
    exfalso. exact (H _ Hin E).
Qed.

Theorem prevalid_no_panic alts : prevalid alts -> exists r, expand alts = Ok r.
Proof.
  intros Hv. destruct (expand_unless alts) as [_|(x & Hx & Hl & Ha)]; [eauto|]. exfalso.
  destruct (resolve_origin alts 0 AAll x Hx Ha) as [[_ F]|H]; [exact (F eq_refl)|exact (Hv _ H Hl)].
Qed.

(** non-vacuity: the calculator layout of the documentation *)
Example doc_layout :
  let alts := [ {| p_prec := Some 0; p_assoc := None; p_syms := [POther 0] |};
                {| p_prec := Some 1; p_assoc := Some ALeft; p_syms := [PSelf; POther 1; PSelf] |};
                {| p_prec := None; p_assoc := None; p_syms := [PSelf; POther 2; PSelf] |};
                {| p_prec := Some 2; p_assoc := Some ARight; p_syms := [PSelf; POther 3; PSelf] |} ] in
  prevalid alts /\
  expand alts = Ok [ (0, [[OOther 0]]);
                     (1, [[OTier 1; OOther 1; OTier 0]; [OTier 1; OOther 2; OTier 0]; [OTier 0]]);
                     (2, [[OTier 1; OOther 3; OTier 2]; [OTier 1]]) ].
Proof. split; [apply prevalidb_spec|]; reflexivity. Qed.
