(** C14: inlining preserves the language and the values: for every symbol, input and value, the inlined
    grammar derives the input with that value iff the original grammar does.  A derivation "with
    value v" means that every action on the way succeeded; the synthetic inline actions evaluate the
    inlined actions left to right on their slices and then the outer action (Inline.v: eval). *)
From Coq Require Import List Arith.
From LV Require Import Norm.Inline.
Import ListNotations.

Section Sem.
Variable fail : nat -> list V -> option nat.

Inductive der (g : list prod) : sym -> list nat -> V -> Prop :=
| DT t : der g (T t) [t] (VLeaf t)
| DN p w args v : In p g -> ders g (rhs p) w args -> eval fail (action p) args = Ok v -> der g (NT (lhs p)) w v
with ders (g : list prod) : list sym -> list nat -> list V -> Prop :=
| DNil : ders g [] [] []
| DCons s ss w1 w2 v vs : der g s w1 v -> ders g ss w2 vs -> ders g (s :: ss) (w1 ++ w2) (v :: vs).

Scheme der_mut := Induction for der Sort Prop
with ders_mut := Induction for ders Sort Prop.

Lemma evalp_nil args : evalp fail PNil args = Ok [].
Proof. reflexivity. Qed.
Lemma evalp_orig r x t : evalp fail (POrig r) (x :: t) = match evalp fail r t with Ok vs => Ok (x :: vs) | Err e => Err e end.
Proof. reflexivity. Qed.
Lemma evalp_inl a k r args : evalp fail (PInl a k r) args =
  match eval fail a (firstn k args) with
  | Err e => Err e
  | Ok v => match evalp fail r (skipn k args) with Ok vs => Ok (v :: vs) | Err e => Err e end
  end.
Proof. reflexivity. Qed.
Lemma eval_inl o ps args : eval fail (AInl o ps) args = match evalp fail ps args with Ok vs => eval fail o vs | Err e => Err e end.
Proof. reflexivity. Qed.

Lemma ders_length g ss w vs : ders g ss w vs -> length vs = length ss.
Proof. induction 1; simpl; congruence. Qed.

Lemma der_nt_inv g n w v : der g (NT n) w v ->
  exists p args, In p g /\ lhs p = n /\ ders g (rhs p) w args /\ eval fail (action p) args = Ok v.
Proof. intros H. inversion H; subst. eauto 7. Qed.

Lemma ders_cons_inv g s ss w vs : ders g (s :: ss) w vs ->
  exists w1 w2 v vs', w = w1 ++ w2 /\ vs = v :: vs' /\ der g s w1 v /\ ders g ss w2 vs'.
Proof. intros H. inversion H; subst. eauto 9. Qed.

Lemma ders_nil_inv g w vs : ders g [] w vs -> w = [] /\ vs = [].
Proof. intros H. inversion H; subst. auto. Qed.

Lemma ders_app g s1 : forall s2 w vs,
  ders g (s1 ++ s2) w vs ->
  exists w1 w2 v1 v2, w = w1 ++ w2 /\ vs = v1 ++ v2 /\ ders g s1 w1 v1 /\ ders g s2 w2 v2.
Proof.
  induction s1 as [|s s1 IH]; intros s2 w vs H.
  - exists [], w, [], vs. repeat split; auto. constructor.
  - simpl in H. inversion H as [|s' ss' w1 w2 v vs' Hd1 Hd2]; subst.
    destruct (IH _ _ _ Hd2) as (w1' & w2' & v1 & v2 & -> & -> & Ha & Hb).
    exists (w1 ++ w1'), w2', (v :: v1), v2. repeat split; auto.
    + rewrite app_assoc. reflexivity.
    + constructor; assumption.
Qed.

Lemma ders_app_intro g s1 s2 w1 w2 v1 v2 :
  ders g s1 w1 v1 -> ders g s2 w2 v2 -> ders g (s1 ++ s2) (w1 ++ w2) (v1 ++ v2).
Proof.
  induction 1; intros H2; simpl; [exact H2|].
  rewrite <- app_assoc. constructor; auto.
Qed.

Lemma firstn_app_exact {X} (l1 l2 : list X) : firstn (length l1) (l1 ++ l2) = l1.
Proof. induction l1; simpl; congruence. Qed.
Lemma skipn_app_exact {X} (l1 l2 : list X) : skipn (length l1) (l1 ++ l2) = l2.
Proof. induction l1; simpl; congruence. Qed.

(* a grammar that can imitate every production of [g1] derives whatever [g1] derives *)
Lemma der_incl g1 g2 :
  (forall p w args v, In p g1 -> ders g2 (rhs p) w args -> eval fail (action p) args = Ok v -> der g2 (NT (lhs p)) w v) ->
  forall s w v, der g1 s w v -> der g2 s w v.
Proof.
  intros H. apply (der_mut g1 (fun s w v _ => der g2 s w v) (fun ss w vs _ => ders g2 ss w vs)).
  - (* DT *) constructor.
  - (* DN *) intros p w args v Hin _ IH He. exact (H p w args v Hin IH He).
  - (* DNil *) constructor.
  - intros. constructor; assumption.
Qed.

Section Step.
Variable g : list prod.
Variable a : nat.
Let ips := filter (fun p => Nat.eqb (lhs p) a) g.
Let g' := inline_nt g a.
Hypothesis nonrec : nonrecb g a = true.

Lemma ips_spec ip : In ip ips <-> In ip g /\ lhs ip = a.
Proof. unfold ips. rewrite filter_In, Nat.eqb_eq. reflexivity. Qed.

Lemma ips_no_mention ip : In ip ips -> mentions a (rhs ip) = false.
Proof.
  intros H. apply ips_spec in H. destruct H as [Hin Hl].
  unfold nonrecb in nonrec. rewrite forallb_forall in nonrec. specialize (nonrec _ Hin).
  rewrite Hl, Nat.eqb_refl in nonrec. simpl in nonrec. destruct (mentions a (rhs ip)); [discriminate|reflexivity].
Qed.

Lemma in_g' p : In p g' <-> exists q, In q g /\ In p (inline_into a ips q).
Proof. unfold g', inline_nt. fold ips. apply in_flat_map. Qed.

(* closed, the statement takes [fail] as its first argument although the proof has no use for it *)
Lemma ips_kept ip : In ip ips -> In ip g'.
Proof using fail nonrec.
  intros H. apply in_g'. exists ip. split; [apply ips_spec in H; tauto|].
  unfold inline_into. rewrite (ips_no_mention _ H). left. reflexivity.
Qed.

Lemma lhs_inline_into q p : In p (inline_into a ips q) -> lhs p = lhs q.
Proof.
  unfold inline_into. destruct (mentions a (rhs q)).
  - intros H. apply in_map_iff in H. destruct H as (l & <- & _). reflexivity.
  - intros [<-|[]]. reflexivity.
Qed.

Lemma g'_a_prods p : In p g' -> lhs p = a -> In p ips.
Proof.
  intros H Hl. apply in_g' in H. destruct H as (q & Hq & Hp).
  assert (Hlq : lhs q = a) by (rewrite <- (lhs_inline_into _ _ Hp); exact Hl).
  assert (Hqi : In q ips) by (apply ips_spec; split; assumption).
  unfold inline_into in Hp. rewrite (ips_no_mention _ Hqi) in Hp. destruct Hp as [<-|[]]. exact Hqi.
Qed.

(* a derivation of [into] in g' fixes, per occurrence of a, the production used: a member of [expand] whose [evalp]
   gives the arguments back; [unchoose] is the converse *)
Lemma choose into : forall w args,
  ders g' into w args ->
  exists l args', In l (expand a ips into) /\ ders g' (flatten l) w args' /\ evalp fail (parts_of l) args' = Ok args.
Proof.
  induction into as [|s into IH]; intros w args H.
  - apply ders_nil_inv in H. destruct H as [-> ->].
    exists [], []. repeat split; [left; reflexivity|constructor].
  - apply ders_cons_inv in H. destruct H as (w1 & w2 & v & vs & -> & -> & Hs & Hr).
    destruct (IH _ _ Hr) as (l & args' & Hl & Hd & He).
    cbn [expand]. destruct (is_nt a s) eqn:Es.
    + destruct s as [t|n]; [discriminate|]. cbn [is_nt] in Es. apply Nat.eqb_eq in Es.
      rewrite Es in Hs. apply der_nt_inv in Hs. destruct Hs as (p & args0 & Hp & Hlp & Hd0 & He0).
      pose proof (g'_a_prods p Hp Hlp) as Hip.
      exists (IInl (action p) (rhs p) :: l), (args0 ++ args'). repeat split.
      * apply in_flat_map. exists p. split; [exact Hip|]. apply in_map. exact Hl.
      * cbn [flatten]. apply ders_app_intro; assumption.
      * cbn [parts_of]. rewrite evalp_inl, <- (ders_length _ _ _ _ Hd0).
        rewrite firstn_app_exact, skipn_app_exact. rewrite He0, He. reflexivity.
    + exists (IOrig s :: l), (v :: args'). repeat split.
      * apply in_map. exact Hl.
      * cbn [flatten]. constructor; assumption.
      * cbn [parts_of]. rewrite evalp_orig, He. reflexivity.
Qed.

Lemma to_inlined : forall s w v, der g s w v -> der g' s w v.
Proof.
  apply der_incl. intros p w args v Hin Hd He. destruct (mentions a (rhs p)) eqn:Em.
  - destruct (choose _ _ _ Hd) as (l & args' & Hl & Hd' & Hev).
    set (p' := {| lhs := lhs p; rhs := flatten l; action := AInl (action p) (parts_of l) |}).
    apply (DN g' p' w args' v); [|exact Hd'|cbn [p' action]; rewrite eval_inl, Hev; exact He].
    apply in_g'. exists p. split; [exact Hin|]. unfold inline_into. rewrite Em. exact (in_map _ _ l Hl).
  - apply (DN g' p w args v); [|exact Hd|exact He].
    apply in_g'. exists p. split; [exact Hin|]. unfold inline_into. rewrite Em. left. reflexivity.
Qed.

Lemma unchoose into : forall l w args' args,
  In l (expand a ips into) -> ders g (flatten l) w args' -> evalp fail (parts_of l) args' = Ok args ->
  ders g into w args.
Proof.
  induction into as [|s into IH]; intros l w args' args Hl Hd He; cbn [expand] in Hl.
  - destruct Hl as [<-|[]]. cbn in *. apply ders_nil_inv in Hd. destruct Hd as [-> ->]. inversion He. constructor.
  - destruct (is_nt a s) eqn:Es.
    + destruct s as [t|n]; [discriminate|]. cbn [is_nt] in Es. apply Nat.eqb_eq in Es. rewrite Es.
      apply in_flat_map in Hl. destruct Hl as (ip & Hip & Hl).
      apply in_map_iff in Hl. destruct Hl as (l0 & <- & Hl0).
      cbn [flatten parts_of] in *. rewrite evalp_inl in He.
      destruct (ders_app _ _ _ _ _ Hd) as (w1 & w2 & v1 & v2 & -> & -> & H1 & H2).
      rewrite <- (ders_length _ _ _ _ H1), firstn_app_exact, skipn_app_exact in He.
      destruct (eval fail (action ip) v1) as [v|e] eqn:Ev; [|discriminate].
      destruct (evalp fail (parts_of l0) v2) as [vs|e] eqn:Evs; [|discriminate].
      inversion He; subst. constructor.
      * apply ips_spec in Hip. destruct Hip as [Hin Hlip]. rewrite <- Hlip. apply (DN g ip w1 v1 v); assumption.
      * eapply IH; eauto.
    + apply in_map_iff in Hl. destruct Hl as (l0 & <- & Hl0).
      cbn [flatten parts_of] in *.
      apply ders_cons_inv in Hd. destruct Hd as (w1 & w2 & v & vs & -> & -> & Hs & Hr).
      rewrite evalp_orig in He.
      destruct (evalp fail (parts_of l0) vs) as [vs'|e] eqn:Evs; [|discriminate].
      inversion He; subst. constructor; [assumption|]. eapply IH; eauto.
Qed.

Lemma from_inlined : forall s w v, der g' s w v -> der g s w v.
Proof.
  apply der_incl. intros p w args v Hin Hd He.
  apply in_g' in Hin. destruct Hin as (q & Hq & Hp). unfold inline_into in Hp.
  destruct (mentions a (rhs q)) eqn:Em.
  - apply in_map_iff in Hp. destruct Hp as (l & <- & Hl). cbn [lhs rhs action] in *. rewrite eval_inl in He.
    destruct (evalp fail (parts_of l) args) as [args0|e] eqn:Ep; [|discriminate].
    exact (DN g q w args0 v Hq (unchoose _ _ _ _ _ Hl Hd Ep) He).
  - destruct Hp as [<-|[]]. exact (DN g q w args v Hq Hd He).
Qed.

Lemma flatten_no_mention into : forall l, In l (expand a ips into) -> mentions a (flatten l) = false.
Proof.
  induction into as [|s into IH]; intros l Hl; cbn [expand] in Hl.
  - destruct Hl as [<-|[]]. reflexivity.
  - destruct (is_nt a s) eqn:Es.
    + apply in_flat_map in Hl. destruct Hl as (ip & Hip & Hl).
      apply in_map_iff in Hl. destruct Hl as (l0 & <- & Hl0). cbn [flatten].
      pose proof (ips_no_mention _ Hip) as Hm. pose proof (IH _ Hl0) as Hr.
      unfold mentions in Hm, Hr |- *. rewrite existsb_app, Hm, Hr. reflexivity.
    + apply in_map_iff in Hl. destruct Hl as (l0 & <- & Hl0). cbn [flatten].
      pose proof (IH _ Hl0) as Hr. unfold mentions in Hr |- *. cbn [existsb]. rewrite Es, Hr. reflexivity.
Qed.

Theorem inline_nt_removes p : In p g' -> mentions a (rhs p) = false.
Proof.
  intros Hp. apply in_g' in Hp. destruct Hp as (q & _ & Hp). unfold inline_into in Hp.
  destruct (mentions a (rhs q)) eqn:Em.
  - apply in_map_iff in Hp. destruct Hp as (l & <- & Hl). exact (flatten_no_mention _ _ Hl).
  - destruct Hp as [<-|[]]. exact Em.
Qed.
End Step.

Theorem inline_nt_preserves g a : nonrecb g a = true ->
  forall s w v, der (inline_nt g a) s w v <-> der g s w v.
Proof. intros H s w v. split; [apply from_inlined|apply to_inlined]; exact H. Qed.

Theorem inline_all_preserves order : forall g g', inline_all g order = Some g' ->
  forall s w v, der g' s w v <-> der g s w v.
Proof.
  induction order as [|a order IH]; intros g g' H s w v; cbn [inline_all] in H.
  - inversion H. tauto.
  - destruct (nonrecb g a) eqn:En; [|discriminate].
    rewrite (IH _ _ H). apply inline_nt_preserves. exact En.
Qed.

Theorem inline_grammar_preserves inl g g' : inline_grammar inl g = Some g' ->
  forall s w v, der g' s w v <-> der g s w v.
Proof.
  unfold inline_grammar. destruct (inline_order g inl) as [order|]; [|discriminate].
  apply inline_all_preserves.
Qed.
End Sem.

(** the language (no action ever fails) is preserved as a special case *)
Corollary inline_grammar_language inl g g' : inline_grammar inl g = Some g' ->
  forall s w, (exists v, der (fun _ _ => None) g' s w v) <-> (exists v, der (fun _ _ => None) g s w v).
Proof.
  intros H s w. split; intros [v Hv]; exists v; apply (inline_grammar_preserves _ _ _ _ H); exact Hv.
Qed.

(** non-vacuity: a repeated, two-symbol inlined nonterminal with a failing alternative *)
Example inline_example :
  let g := number [(0, [NT 1; T 9; NT 1]); (1, [T 5; T 6]); (1, [])] in
  exists g', inline_grammar [1] g = Some g' /\ length g' = 6 /\
  der (fun id _ => if Nat.eqb id 2 then Some 7 else None) g (NT 0) [5; 6; 9; 5; 6]
      (VNode 0 [VNode 1 [VLeaf 5; VLeaf 6]; VLeaf 9; VNode 1 [VLeaf 5; VLeaf 6]]).
Proof.
  eexists. split; [reflexivity|]. split; [reflexivity|]. cbv zeta.
  set (fail := fun id _ => if Nat.eqb id 2 then Some 7 else None). set (g := number _).
  assert (H1 : der fail g (NT 1) [5; 6] (VNode 1 [VLeaf 5; VLeaf 6])).
  { apply (DN _ _ {| lhs := 1; rhs := [T 5; T 6]; action := AOrig 1 |} _ [VLeaf 5; VLeaf 6]); [simpl; auto| |reflexivity].
    apply (DCons _ _ (T 5) _ [5] [6]); [constructor|]. apply (DCons _ _ (T 6) _ [6] []); constructor. }
  apply (DN _ _ {| lhs := 0; rhs := [NT 1; T 9; NT 1]; action := AOrig 0 |} _ [VNode 1 [VLeaf 5; VLeaf 6]; VLeaf 9; VNode 1 [VLeaf 5; VLeaf 6]]);
    [simpl; auto| |reflexivity].
  apply (DCons _ _ (NT 1) _ [5; 6] [9; 5; 6]); [exact H1|]. apply (DCons _ _ (T 9) _ [9] [5; 6]); [constructor|].
  apply (DCons _ _ (NT 1) _ [5; 6] []); [exact H1|constructor].
Qed.

(** the order of the inlined actions: within one inlining step they run left to right (evalp), but two
    different #[inline] nonterminals are inlined in two steps and the later step wraps the earlier
    one, so its actions run first.  Witness: S = B C, both inlined, both actions failing (11 for B,
    22 for C): the synthetic action of S reports 22. *)
Definition order_witness_fail (id : nat) (_ : list V) : option nat :=
  if Nat.eqb id 1 then Some 11 else if Nat.eqb id 2 then Some 22 else None.
Example inlined_actions_not_left_to_right_across_nonterminals :
  let g := number [(0, [NT 1; NT 2]); (1, [T 5]); (2, [T 6])] in
  exists g' p, inline_grammar [1; 2] g = Some g' /\ In p g' /\ lhs p = 0 /\ rhs p = [T 5; T 6] /\
               eval order_witness_fail (action p) [VLeaf 5; VLeaf 6] = Err 22.
Proof.
  eexists. eexists. split; [reflexivity|]. split; [left; reflexivity|]. repeat split.
Qed.
