(** C15: the evaluator of #[cfg(...)] predicates ([test]) decides what they mean ([holds]), and removing
    the disabled declarations is a filter. *)
From Coq Require Import List Bool.
From LV Require Import Norm.Cfg.
Import ListNotations.

Lemma smem_in f fs : smem f fs = true <-> In f fs.
Proof.
  unfold smem. rewrite existsb_exists. split.
  - intros (x & Hin & He). apply String.eqb_eq in He. now subst.
  - intros H. exists f. split; [exact H|apply String.eqb_refl].
Qed.

Section PredInd.
  Variable P : pred -> Prop.
  Hypothesis Hf : forall f, P (PFeature f).
  Hypothesis Hn : forall l, Forall P l -> P (PNot l).
  Hypothesis Ha : forall l, Forall P l -> P (PAll l).
  Hypothesis Hy : forall l, Forall P l -> P (PAny l).
  Hypothesis Ho : P POther.
  Fixpoint pred_ind' (p : pred) : P p :=
    let go := fix go (l : list pred) : Forall P l :=
      match l with [] => Forall_nil P | a :: r => Forall_cons a (pred_ind' a) (go r) end in
    match p with
    | PFeature f => Hf f
    | PNot l => Hn l (go l)
    | PAll l => Ha l (go l)
    | PAny l => Hy l (go l)
    | POther => Ho
    end.
End PredInd.

Theorem test_spec fs : forall p, wfp p -> (test fs p = true <-> holds fs p).
Proof.
  induction p as [f|l IH|l IH|l IH|] using pred_ind'; intros Hwf; inversion Hwf as [|a Hwa|l' HW|l' HW]; subst; simpl.
  - (* PFeature *) apply smem_in.
  - (* PNot [a] *) apply Forall_inv in IH. specialize (IH Hwa). rewrite negb_true_iff. split.
    + intros H Hh. apply IH in Hh. congruence.
    + intros H. destruct (test fs a); [|reflexivity]. destruct (H (proj1 IH eq_refl)).
  - (* PAll *) clear Hwf. induction l as [|a r IHr]; [tauto|].
    rewrite andb_true_iff, (Forall_inv IH (Forall_inv HW)), (IHr (Forall_inv_tail IH) (Forall_inv_tail HW)). tauto.
  - (* PAny *) clear Hwf. induction l as [|a r IHr]; [split; [discriminate|tauto]|].
    rewrite orb_true_iff, (Forall_inv IH (Forall_inv HW)), (IHr (Forall_inv_tail IH) (Forall_inv_tail HW)). tauto.
Qed.

(* removal is plain filtering, hence idempotent: normalize/lower applies the same test to the extern
   conversions (not modelled) a second time, which is harmless for that reason *)
Lemma filter_idem {X} (f : X -> bool) l : filter f (filter f l) = filter f l.
Proof. induction l as [|x l IH]; simpl; [reflexivity|]. destruct (f x) eqn:H; simpl; rewrite ?H; congruence. Qed.

Theorem remove_disabled_idempotent fs g : remove_disabled fs (remove_disabled fs g) = remove_disabled fs g.
Proof.
  unfold remove_disabled.
  induction g as [|n g IH]; simpl; [reflexivity|].
  destruct (cfg_active fs (n_cfg n)) eqn:Hn; simpl; [|exact IH].
  rewrite Hn. simpl. rewrite filter_idem. f_equal. exact IH.
Qed.
