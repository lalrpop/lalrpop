(** C25: the unique prefix of parser/mod.rs:parse_grammar ("__", extended by '_' while the input text
    contains it) and the freshness of every name built from it. *)
From Coq Require Import List Ascii Bool Lia.
Import ListNotations.

Definition text := list ascii.
Definition us : ascii := "_"%char.

Fixpoint starts_with (p t : text) : bool :=
  match p, t with
  | [], _ => true
  | _, [] => false
  | a :: p', b :: t' => Ascii.eqb a b && starts_with p' t'
  end.
Fixpoint contains (t p : text) : bool :=
  starts_with p t || match t with [] => false | _ :: t' => contains t' p end.

(* while input.contains(&prefix) { prefix.push('_') } *)
Fixpoint find_prefix (fuel : nat) (input p : text) : option text :=
  if contains input p then match fuel with O => None | S f => find_prefix f input (p ++ [us]) end
  else Some p.
Definition prefix_of (input : text) : option text := find_prefix (S (length input)) input [us; us].

Lemma starts_with_iff p : forall t, starts_with p t = true <-> exists s, t = p ++ s.
Proof.
  induction p as [|a p IH]; intros [|b t]; cbn [starts_with app].
  - (* [] in [] *) split; eauto.
  - (* [] in b :: t *) split; eauto.
  - (* a :: p in [] *) split; [discriminate|intros [s H]; discriminate].
  - (* a :: p in b :: t *) split.
    + intros H. apply andb_prop in H as [E H]. apply Ascii.eqb_eq in E as ->. apply IH in H as [s ->]. eauto.
    + intros [s H]. inversion H. rewrite Ascii.eqb_refl. apply IH. eauto.
Qed.

Lemma contains_iff p : forall t, contains t p = true <-> exists t1 t2, t = t1 ++ p ++ t2.
Proof.
  induction t as [|b t IH]; cbn [contains]; split.
  - (* t = [], -> *) intros H. apply orb_prop in H as [H|H]; [|discriminate]. apply starts_with_iff in H as [s H]. exists [], s. exact H.
  - (* t = [], <- *) intros (t1 & t2 & H). destruct t1; [|discriminate]. apply orb_true_intro. left. apply starts_with_iff. eauto.
  - (* t = b :: t, ->: p starts here or occurs later *) intros H. apply orb_prop in H as [H|H].
    + apply starts_with_iff in H as [s H]. exists [], s. exact H.
    + apply IH in H as (t1 & t2 & ->). exists (b :: t1), t2. reflexivity.
  - (* t = b :: t, <- *) intros (t1 & t2 & H). apply orb_true_intro. destruct t1 as [|c t1]; [left; apply starts_with_iff; eauto|].
    right. apply IH. inversion H. eauto.
Qed.

Lemma contains_length t p : contains t p = true -> length p <= length t.
Proof. intros H. apply contains_iff in H as (t1 & t2 & ->). rewrite !app_length. lia. Qed.

Lemma find_prefix_spec fuel input : forall p,
  match find_prefix fuel input p with
  | Some q => exists n, q = p ++ repeat us n /\ contains input q = false
  | None => contains input (p ++ repeat us fuel) = true
  end.
Proof.
  induction fuel as [|f IH]; intros p; cbn [find_prefix]; destruct (contains input p) eqn:E.
  - (* p occurs, no fuel *) cbn. rewrite app_nil_r. exact E.
  - (* p does not occur *) exists 0. rewrite app_nil_r. auto.
  - (* p occurs: one more underscore *)
    specialize (IH (p ++ [us])). destruct (find_prefix f input (p ++ [us])).
    + destruct IH as (n & Hq & Ha). rewrite <- app_assoc in Hq. exists (S n). split; [exact Hq|exact Ha].
    + rewrite <- app_assoc in IH. exact IH.
  - (* p does not occur *) exists 0. rewrite app_nil_r. auto.
Qed.

(* a run of more underscores than the input has characters cannot occur in it, so the fuel suffices *)
Lemma prefix_of_spec input : exists n, prefix_of input = Some (us :: us :: repeat us n) /\
  contains input (us :: us :: repeat us n) = false.
Proof.
  unfold prefix_of. pose proof (find_prefix_spec (S (length input)) input [us; us]) as H.
  destruct (find_prefix _ input _) as [q|].
  - destruct H as (n & -> & H). exists n. split; [reflexivity|exact H].
  - apply contains_length in H. rewrite app_length, repeat_length in H. cbn in H. lia.
Qed.

Theorem prefix_exists input : exists q, prefix_of input = Some q.
Proof. destruct (prefix_of_spec input) as (n & H & _). eauto. Qed.

Theorem prefix_absent input q : prefix_of input = Some q -> contains input q = false.
Proof. destruct (prefix_of_spec input) as (n & -> & H). intros E. inversion E; subst. exact H. Qed.

Theorem prefix_underscores input q : prefix_of input = Some q -> Forall (fun c => c = us) q /\ 2 <= length q.
Proof.
  destruct (prefix_of_spec input) as (n & -> & _). intros E. inversion E. split; [|cbn; lia].
  do 2 (constructor; [reflexivity|]). apply Forall_forall. intros c Hc. exact (repeat_spec _ _ _ Hc).
Qed.

(* anything that occurs in the input (every user identifier does) differs from every generated name *)
Theorem generated_names_are_fresh input q : prefix_of input = Some q ->
  forall t1 u t2 s, input = t1 ++ u ++ t2 -> u <> q ++ s.
Proof.
  intros Hq t1 u t2 s -> ->. apply prefix_absent in Hq.
  rewrite (proj2 (contains_iff q _)) in Hq; [discriminate|]. exists t1, (s ++ t2). rewrite <- app_assoc. reflexivity.
Qed.
