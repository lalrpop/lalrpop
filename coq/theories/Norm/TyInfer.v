(** C19 (model part): the types lalrpop declares for the nonterminals it creates -- Vec<T> for X* and
    X+, Option<T> for X?, the tuple (or the single type) of the selected symbols of a group -- and the
    values their generated actions build.  A value typing relation, and the typing of those actions. *)
From Coq Require Import List.
Import ListNotations.

Inductive ty := TAtom (id : nat) | TTuple (l : list ty) | TVec (t : ty) | TOpt (t : ty).

(* maybe_tuple: one selected symbol keeps its type, otherwise a tuple (the empty tuple for none) *)
Definition maybe_tuple (l : list ty) : ty := match l with [t] => t | _ => TTuple l end.

Inductive val := VAtom (id : nat) (payload : nat) | VTuple (l : list val) | VVec (l : list val) | VSome (v : val) | VNone.

Inductive has_type : val -> ty -> Prop :=
| HT_atom id p : has_type (VAtom id p) (TAtom id)
| HT_tuple vs ts : Forall2 has_type vs ts -> has_type (VTuple vs) (TTuple ts)
| HT_vec vs t : Forall (fun v => has_type v t) vs -> has_type (VVec vs) (TVec t)
| HT_some v t : has_type v t -> has_type (VSome v) (TOpt t)
| HT_none t : has_type VNone (TOpt t).

Definition act_vec_one (e : val) : val := VVec [e].                               (* alloc::vec![<>] *)
Definition act_vec_push (v e : val) : val := match v with VVec l => VVec (l ++ [e]) | _ => v end.  (* { let mut v = v; v.push(e); v } *)
Definition act_vec_empty : val := VVec [].                                        (* alloc::vec![] *)
Definition act_some (e : val) : val := VSome e.                                   (* Some(<>) *)
Definition act_none : val := VNone.
Definition act_group (sel : list val) : val := match sel with [v] => v | _ => VTuple sel end.   (* <> / (<>) *)

Lemma vec_one_typed e t : has_type e t -> has_type (act_vec_one e) (TVec t).
Proof. intros H. constructor. constructor; [exact H|constructor]. Qed.

Lemma vec_push_typed v e t : has_type v (TVec t) -> has_type e t -> has_type (act_vec_push v e) (TVec t).
Proof.
  intros Hv He. inversion Hv; subst. cbn. constructor. apply Forall_app. split; [assumption|].
  constructor; [exact He|constructor].
Qed.

Lemma vec_empty_typed t : has_type act_vec_empty (TVec t).
Proof. constructor. constructor. Qed.

Lemma some_typed e t : has_type e t -> has_type (act_some e) (TOpt t).
Proof. intros H. constructor. exact H. Qed.

Lemma none_typed t : has_type act_none (TOpt t).
Proof. constructor. Qed.

Lemma group_typed sel ts : Forall2 has_type sel ts -> has_type (act_group sel) (maybe_tuple ts).
Proof.
  intros H. destruct H as [|v t sel' ts' Hv Hr]; [cbn; constructor; constructor|].
  destruct Hr as [|v2 t2 sel2 ts2 Hv2 Hr2]; cbn; [exact Hv|].
  constructor. constructor; [exact Hv|]. constructor; assumption.
Qed.
