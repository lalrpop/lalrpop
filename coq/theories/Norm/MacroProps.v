(** The cache key of macro expansion (the canonical form) is injective on source symbols: two uses
    share an expansion iff they are the same symbol.  Plus: replacing sub-symbols by their created
    nonterminals does not change the key; the semantics of the repeat expansions. *)
From Coq Require Import List String.
From LV Require Import Norm.Macro.
Import ListNotations.

(** source symbols: no created nonterminals inside *)
Fixpoint src (s : sym) : Prop :=
  match s with
  | SMacro _ args => (fix all (l : list sym) : Prop := match l with [] => True | a :: r => src a /\ all r end) args
  | SExpr ss => (fix all (l : list sym) : Prop := match l with [] => True | a :: r => src a /\ all r end) ss
  | SRepeat a _ => src a
  | SChoose a => src a
  | SGen _ => False
  | _ => True
  end.
Fixpoint src_all (l : list sym) : Prop := match l with [] => True | a :: r => src a /\ src_all r end.
Lemma src_macro n args : src (SMacro n args) = src_all args.
Proof. cbn [src]. induction args as [|a r IH]; cbn [src_all]; [reflexivity|]. rewrite <- IH. reflexivity. Qed.
(* [src (SExpr ss)] and [src (SMacro _ ss)] unfold to the same term *)
Lemma src_expr ss : src (SExpr ss) = src_all ss.
Proof. exact (src_macro EmptyString ss). Qed.

(** an induction principle that reaches into argument lists *)
Section SymInd.
Variable P : sym -> Prop.
Hypothesis Hlit : forall x, P (SLit x).
Hypothesis Hre : forall x, P (SRe x).
Hypothesis Hid : forall x, P (SId x).
Hypothesis Hmac : forall n args, Forall P args -> P (SMacro n args).
Hypothesis Hexpr : forall ss, Forall P ss -> P (SExpr ss).
Hypothesis Hrep : forall a o, P a -> P (SRepeat a o).
Hypothesis Hcho : forall a, P a -> P (SChoose a).
Hypothesis Herr : P SError.
Hypothesis Hgen : forall k, P (SGen k).
Fixpoint sym_ind' (s : sym) : P s :=
  match s with
  | SLit x => Hlit x
  | SRe x => Hre x
  | SId x => Hid x
  | SMacro n args => Hmac n args ((fix go (l : list sym) : Forall P l :=
                                     match l with [] => Forall_nil P | a :: r => Forall_cons a (sym_ind' a) (go r) end) args)
  | SExpr ss => Hexpr ss ((fix go (l : list sym) : Forall P l :=
                             match l with [] => Forall_nil P | a :: r => Forall_cons a (sym_ind' a) (go r) end) ss)
  | SRepeat a o => Hrep a o (sym_ind' a)
  | SChoose a => Hcho a (sym_ind' a)
  | SError => Herr
  | SGen k => Hgen k
  end.
End SymInd.

(* a symbol is an atom followed by postfix operators *)
Fixpoint atom_of (s : sym) : sym := match s with SRepeat a _ => atom_of a | _ => s end.
Fixpoint ops_of (s : sym) : list rop := match s with SRepeat a o => ops_of a ++ [o] | _ => [] end.
Definition is_atom (s : sym) : Prop := match s with SRepeat _ _ => False | _ => True end.

Lemma canon_atom_ops s : canon s = canon (atom_of s) ++ map KOp (ops_of s).
Proof.
  induction s as [x|x|x|m args|ss|a IHa o|a _| |k]; cbn [atom_of ops_of map]; rewrite ?app_nil_r; try reflexivity.
  (* SRepeat *) cbn [canon]. rewrite IHa, map_app, app_assoc. reflexivity.
Qed.

Lemma atom_ops_eq s1 s2 : atom_of s1 = atom_of s2 -> ops_of s1 = ops_of s2 -> s1 = s2.
Proof.
  assert (H : forall s, s = fold_left SRepeat (ops_of s) (atom_of s)).
  { induction s as [x|x|x|m args|ss|a IHa o|a _| |k]; try reflexivity.
    (* SRepeat *) cbn [atom_of ops_of]. rewrite fold_left_app, <- IHa. reflexivity. }
  intros Ea Eo. rewrite (H s1), (H s2), Ea, Eo. reflexivity.
Qed.

Lemma atom_of_atom s : is_atom (atom_of s).
Proof. induction s as [x|x|x|m args|ss|a IHa o|a _| |k]; cbn [atom_of]; try exact I. (* SRepeat *) exact IHa. Qed.

Lemma atom_of_src s : src s -> src (atom_of s).
Proof. induction s; cbn [atom_of]; auto. Qed.

(* what may follow a symbol inside a canonical form (besides a postfix operator) *)
Definition sepish (t : tok) : Prop := match t with KComma | KSp | KGt | KRp => True | _ => False end.
Definition follow (r : list tok) : Prop := match r with [] => True | t :: _ => sepish t end.
Definition follow_op (r : list tok) : Prop := match r with [] => True | KOp _ :: _ => True | t :: _ => sepish t end.

Lemma follow_ops ops r : follow r -> follow_op (map KOp ops ++ r).
Proof.
  destruct ops as [|o ops]; cbn [map app]; [|intros _; exact I]. destruct r as [|[]]; cbn; auto.
Qed.

(* the first token of a source symbol starts an atom *)
Definition starts (t : tok) : Prop :=
  match t with KLit _ | KRe _ | KId _ | KErr | KLp | KLt => True | _ => False end.

Lemma starts_not_op t o : starts t -> t <> KOp o.
Proof. destruct t; cbn; intros H E; try discriminate; exact H. Qed.

(* the first token of an atom tells its constructor, and where its canonical form goes on *)
Lemma atom_head a r t r' : is_atom a -> src a -> canon a ++ r = t :: r' ->
  match t with
  | KLit x => a = SLit x /\ r' = r
  | KRe x => a = SRe x /\ r' = r
  | KErr => a = SError /\ r' = r
  | KId x => (a = SId x /\ r' = r) \/
             exists args, a = SMacro x args /\ r' = KLt :: join [KComma; KSp] (map canon args) ++ KGt :: r
  | KLp => exists ss, a = SExpr ss /\ r' = join [KSp] (map canon ss) ++ KRp :: r
  | KLt => exists b, a = SChoose b /\ r' = canon b ++ KGt :: r
  | _ => False
  end.
Proof.
  intros A S E. destruct a as [x|x|x|m args|ss|a o|a| |k]; cbn [canon app] in E.
  - (* SLit *) injection E as <- <-. auto.
  - (* SRe *) injection E as <- <-. auto.
  - (* SId *) injection E as <- <-. auto.
  - (* SMacro *) injection E as <- <-. rewrite <- app_assoc. eauto.
  - (* SExpr *) injection E as <- <-. rewrite <- app_assoc. eauto.
  - (* SRepeat: not an atom *) destruct A.
  - (* SChoose *) injection E as <- <-. rewrite <- app_assoc. eauto.
  - (* SError *) injection E as <- <-. auto.
  - (* SGen: not a source symbol *) destruct S.
Qed.

Lemma canon_head s r t r' : src s -> canon s ++ r = t :: r' -> ~ sepish t.
Proof.
  intros Hs E. rewrite canon_atom_ops, <- app_assoc in E.
  apply atom_head in E; [|apply atom_of_atom|exact (atom_of_src _ Hs)].
  intros Hsep. destruct t; try contradiction Hsep.
  (* the four separators are left, and by [atom_head] an atom starts with none of them *)
  all: destruct E.
Qed.

Lemma ops_prefix ops1 : forall ops2 r1 r2, follow r1 -> follow r2 ->
  map KOp ops1 ++ r1 = map KOp ops2 ++ r2 -> ops1 = ops2 /\ r1 = r2.
Proof.
  induction ops1 as [|o ops1 IH]; intros [|o2 ops2] r1 r2 F1 F2 E; cbn [map app] in E.
  - auto.
  - subst r1. destruct F1.
  - subst r2. destruct F2.
  - injection E as -> E. destruct (IH _ _ _ F1 F2 E) as [-> ->]. auto.
Qed.

(** injectivity with remainders: what a canonical form is followed by does not blur where it ends *)
Definition inj_rem (s1 : sym) : Prop := forall s2 r1 r2, src s1 -> src s2 -> follow r1 -> follow r2 ->
  canon s1 ++ r1 = canon s2 ++ r2 -> s1 = s2 /\ r1 = r2.
(* the same for the atom of a symbol; here a postfix operator may follow *)
Definition atom_inj_rem (s1 : sym) : Prop := forall a2 r1 r2, is_atom a2 -> src (atom_of s1) -> src a2 ->
  follow_op r1 -> follow_op r2 -> canon (atom_of s1) ++ r1 = canon a2 ++ r2 -> atom_of s1 = a2 /\ r1 = r2.

Lemma atom_inj_rem_inj_rem s1 : atom_inj_rem s1 -> inj_rem s1.
Proof.
  intros HA s2 r1 r2 S1 S2 F1 F2 E. rewrite (canon_atom_ops s1), (canon_atom_ops s2), <- !app_assoc in E.
  destruct (HA _ _ _ (atom_of_atom s2) (atom_of_src _ S1) (atom_of_src _ S2) (follow_ops _ _ F1) (follow_ops _ _ F2) E) as [Ea Er].
  destruct (ops_prefix _ _ _ _ F1 F2 Er) as [Eo ->]. split; [exact (atom_ops_eq _ _ Ea Eo)|reflexivity].
Qed.

Lemma join_cons sep a l : join sep (a :: l) = a ++ flat_map (app sep) l.
Proof.
  revert a. induction l as [|b l IH]; intros a; [cbn; rewrite app_nil_r; reflexivity|].
  change (join sep (a :: b :: l)) with (a ++ sep ++ join sep (b :: l)).
  rewrite IH. cbn [flat_map]. rewrite <- app_assoc. reflexivity.
Qed.

Section Lists.
Variables (sep : list tok) (close : tok).
Hypothesis sep_follow : forall r, follow (sep ++ r).
Hypothesis sep_close : forall r r', sep ++ r <> close :: r'.
Hypothesis close_sepish : sepish close.

Lemma follow_tail l r : follow (flat_map (app sep) l ++ close :: r).
Proof. destruct l; cbn [flat_map app]; [exact close_sepish|]. rewrite <- !app_assoc. apply sep_follow. Qed.

Lemma tail_inj l1 : Forall inj_rem l1 -> forall l2 r1 r2, src_all l1 -> src_all l2 ->
  flat_map (app sep) (map canon l1) ++ close :: r1 = flat_map (app sep) (map canon l2) ++ close :: r2 -> l1 = l2 /\ r1 = r2.
Proof.
  induction 1 as [|a l1 Ha _ IH]; intros [|b l2] r1 r2 S1 S2 E; cbn [map flat_map] in E.
  - (* both empty *) inversion E. auto.
  - (* [] against b :: l2: the closing token against a separator *)
    rewrite <- !app_assoc in E. symmetry in E. destruct (sep_close _ _ E).
  - (* a :: l1 against []: likewise *)
    rewrite <- !app_assoc in E. destruct (sep_close _ _ E).
  - (* both non-empty: the heads agree, then the tails *)
    rewrite <- !app_assoc in E. apply app_inv_head in E. destruct S1 as [Sa S1]. destruct S2 as [Sb S2].
    destruct (Ha b _ _ Sa Sb (follow_tail _ _) (follow_tail _ _) E) as [-> E'].
    destruct (IH _ _ _ S1 S2 E') as [-> ->]. auto.
Qed.

Lemma join_inj l1 : Forall inj_rem l1 -> forall l2 r1 r2, src_all l1 -> src_all l2 ->
  join sep (map canon l1) ++ close :: r1 = join sep (map canon l2) ++ close :: r2 -> l1 = l2 /\ r1 = r2.
Proof.
  intros H [|b l2] r1 r2 S1 S2 E; destruct H as [|a l1 Ha Hl]; cbn [map] in E.
  - (* both empty *) cbn [join app] in E. inversion E. auto.
  - (* a :: l1 against []: [canon a] would start with the closing token *)
    rewrite join_cons, <- app_assoc in E. cbn [join app] in E.
    destruct S1 as [Sa _]. destruct (canon_head _ _ _ _ Sa E close_sepish).
  - (* [] against b :: l2: likewise *)
    rewrite join_cons, <- app_assoc in E. cbn [join app] in E.
    destruct S2 as [Sb _]. symmetry in E. destruct (canon_head _ _ _ _ Sb E close_sepish).
  - (* both non-empty: with the separator in front, both sides are tails *)
    rewrite !join_cons, <- !app_assoc in E.
    apply (tail_inj (a :: l1) (Forall_cons _ Ha Hl) (b :: l2) _ _ S1 S2). cbn [map flat_map]. rewrite <- !app_assoc. f_equal. exact E.
Qed.
End Lists.

Theorem atom_inj s1 : atom_inj_rem s1.
Proof.
  induction s1 as [x|x|x|m args IH|ss IH|a o IH|a IH| |k] using sym_ind';
    [| | | | |exact IH (* a repeat has the atom of its body *)| | |intros a2 r1 r2 A2 [] (* not a source symbol *)].
  (* the seven atoms: the first token of the other side tells its constructor *)
  all: intros a2 r1 r2 A2 S1 S2 F1 F2 E; cbn [atom_of] in *; symmetry in E; cbn [canon app] in E;
       apply (atom_head _ _ _ _ A2 S2) in E.
  - (* SLit *) destruct E as [-> ->]. auto.
  - (* SRe *) destruct E as [-> ->]. auto.
  - (* SId x; against SMacro x _ the remainder would start with `<` *)
    destruct E as [[-> ->]|(args & _ & ->)]; [auto|destruct F1].
  - (* SMacro *)
    destruct E as [[_ <-]|(args2 & -> & Ej)]; [destruct F2|].
    injection Ej as Ej. rewrite <- app_assoc in Ej. rewrite src_macro in S1, S2.
    apply (Forall_impl _ atom_inj_rem_inj_rem) in IH.
    destruct (join_inj [KComma; KSp] KGt) with (l1 := args) (l2 := args2) (r1 := r1) (r2 := r2) as [-> ->];
      [intros r; exact I|discriminate|exact I|exact IH|exact S1|exact S2|exact Ej|auto].
  - (* SExpr *)
    destruct E as (ss2 & -> & Ej). rewrite <- app_assoc in Ej. rewrite src_expr in S1, S2.
    apply (Forall_impl _ atom_inj_rem_inj_rem) in IH.
    destruct (join_inj [KSp] KRp) with (l1 := ss) (l2 := ss2) (r1 := r1) (r2 := r2) as [-> ->];
      [intros r; exact I|discriminate|exact I|exact IH|exact S1|exact S2|exact Ej|auto].
  - (* SChoose *)
    destruct E as (b & -> & Ej). rewrite <- app_assoc in Ej. cbn [src] in S1, S2.
    destruct (atom_inj_rem_inj_rem _ IH b (KGt :: r1) (KGt :: r2) S1 S2) as [-> Er];
      [exact I|exact I|exact Ej|]. inversion Er. auto.
  - (* SError *) destruct E as [-> ->]. auto.
Qed.

Theorem canon_inj_rem s1 : inj_rem s1.
Proof. exact (atom_inj_rem_inj_rem s1 (atom_inj s1)). Qed.

(** C13: two source symbols have the same cache key iff they are the same symbol *)
Theorem canon_injective s1 s2 : src s1 -> src s2 -> canon s1 = canon s2 -> s1 = s2.
Proof.
  intros S1 S2 E. destruct (canon_inj_rem s1 s2 [] [] S1 S2 I I) as [H _]; [|exact H].
  rewrite !app_nil_r. exact E.
Qed.

(** before the repair the recovery symbol `!` printed as the word `error`, like a nonterminal of that
    name: two different symbols, one key *)
Definition tok_str_unrepaired (debug : string -> string) (t : tok) : string :=
  match t with KErr => "error"%string | _ => tok_str debug t end.
Example unrepaired_key_collision debug :
  SMacro "M" [SError] <> SMacro "M" [SId "error"] /\
  fold_right (fun t acc => (tok_str_unrepaired debug t ++ acc)%string) ""%string (canon (SMacro "M" [SError])) =
  fold_right (fun t acc => (tok_str_unrepaired debug t ++ acc)%string) ""%string (canon (SMacro "M" [SId "error"])).
Proof. split; [discriminate|reflexivity]. Qed.

(** replacing the sub-symbols by their created nonterminals keeps the key (so keys are keys of source symbols) *)
Lemma replace_list_canon l : Forall (fun s => forall x, canon (fst (replace s x)) = canon s) l ->
  forall x, map canon (fst (replace_list l x)) = map canon l.
Proof.
  induction 1 as [|a l Ha Hl IH]; intros x; [reflexivity|].
  cbn [replace_list]. specialize (Ha x). destruct (replace a x) as [a' x1].
  specialize (IH x1). destruct (replace_list l x1) as [r' x2]. cbn [fst map] in *. rewrite Ha, IH. reflexivity.
Qed.

Lemma replace_canon s : forall x, canon (fst (replace s x)) = canon s.
Proof.
  induction s as [y|y|y|m args IH|ss IH|a o IH|a IH| |k] using sym_ind'; intros x; try reflexivity.
  - (* SMacro: the pass over the arguments inside [replace] is [replace_list] *)
    change (replace (SMacro m args) x) with (let '(args', x') := replace_list args x in note (SMacro m args') x').
    pose proof (replace_list_canon args IH x) as H. destruct (replace_list args x) as [args' x']. cbn [fst note canon] in *. rewrite H. reflexivity.
  - (* SExpr: likewise *)
    change (replace (SExpr ss) x) with (let '(ss', x') := replace_list ss x in note (SExpr ss') x').
    pose proof (replace_list_canon ss IH x) as H. destruct (replace_list ss x) as [ss' x']. cbn [fst note canon] in *. rewrite H. reflexivity.
  - (* SRepeat *) cbn [replace]. specialize (IH x). destruct (replace a x) as [a' x']. cbn [fst note canon] in *. rewrite IH. reflexivity.
  - (* SChoose *) cbn [replace]. specialize (IH x). destruct (replace a x) as [a' x']. cbn [fst canon] in *. rewrite IH. reflexivity.
Qed.

(** the expansions of the repeat operators denote lists: `X+ = X | X+ X` with the actions
    `vec![<>]` and `{ let mut v = v; v.push(e); v }` derives exactly the non-empty sequences of X,
    values in input order; `X* = | X+` adds the empty one; `X? = X | ` is Some/None *)
Section Repeat.
Variable T V : Type.
Variable D : list T -> V -> Prop.           (* what X derives, with its value *)

Inductive plus_der : list T -> list V -> Prop :=
| P1 w v : D w v -> plus_der w [v]
| P2 w1 w2 l v : plus_der w1 l -> D w2 v -> plus_der (w1 ++ w2) (l ++ [v]).
Inductive star_der : list T -> list V -> Prop :=
| S0 : star_der [] []
| S1 w l : plus_der w l -> star_der w l.
Inductive opt_der : list T -> option V -> Prop :=
| O1 w v : D w v -> opt_der w (Some v)
| O0 : opt_der [] None.

Theorem plus_der_spec w l : plus_der w l <-> l <> [] /\ exists ws, w = List.concat ws /\ Forall2 D ws l.
Proof.
  split.
  - induction 1 as [w v Hd|w1 w2 l v _ [Hne (ws & -> & Hf)] Hd].
    + split; [discriminate|]. exists [w]. split; [cbn; rewrite app_nil_r; reflexivity|]. constructor; [exact Hd|constructor].
    + split; [destruct l; discriminate|]. exists (ws ++ [w2]). split.
      * rewrite List.concat_app. cbn. rewrite app_nil_r. reflexivity.
      * apply Forall2_app; [exact Hf|]. constructor; [exact Hd|constructor].
  - intros [Hne (ws & -> & Hf)]. revert ws Hf. induction l as [|v l IH] using rev_ind; intros ws Hf; [congruence|].
    destruct (Forall2_app_inv_r _ _ Hf) as (ws1 & ws2 & H1 & H2 & ->).
    inversion H2 as [|w2 v' ws2' l2 Hd Hnil]; subst. inversion Hnil; subst.
    rewrite List.concat_app. cbn. rewrite app_nil_r.
    destruct l as [|v0 l0].
    + inversion H1; subst. cbn. apply P1. exact Hd.
    + apply P2; [|exact Hd]. apply IH; [discriminate|exact H1].
Qed.

Theorem star_der_spec w l : star_der w l <-> exists ws, w = List.concat ws /\ Forall2 D ws l.
Proof.
  split.
  - intros [|w' l' H]; [exists []; split; [reflexivity|constructor]|]. apply plus_der_spec in H. tauto.
  - intros (ws & -> & Hf). destruct l as [|v l].
    + inversion Hf; subst. constructor.
    + apply S1. apply plus_der_spec. split; [discriminate|eauto].
Qed.

Theorem opt_der_spec w o : opt_der w o <-> match o with Some v => D w v | None => w = [] end.
Proof. split; [intros [w' v H|]; auto|]. destruct o; [apply O1|intros ->; apply O0]. Qed.
End Repeat.
