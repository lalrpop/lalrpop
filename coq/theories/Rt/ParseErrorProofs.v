(** C28: an error value is determined by five observations -- variant, locations, token, user error, expected list
    ([obs_inj]) -- and each helper of the [ParseError] model is described by what it does to them; [display] by its text. *)
From Coq Require Import List String PeanoNat Lia.
From LV Require Import Rt.ParseError.
Import ListNotations.
Local Open Scope string_scope.

(** Observations of an error value: what a user can read out of it. *)
Section Obs.
  Context {L T E : Type}.
  Definition tag (x : perr L T E) : nat :=
    match x with InvalidToken _ => 0 | UnrecognizedEof _ _ => 1 | UnrecognizedToken _ _ _ _ => 2
               | ExtraToken _ _ _ => 3 | User _ => 4 end.
  (* all locations, in field order: start before end *)
  Definition locations (x : perr L T E) : list L :=
    match x with
    | InvalidToken l | UnrecognizedEof l _ => [l]
    | UnrecognizedToken s _ e _ | ExtraToken s _ e => [s; e]
    | User _ => []
    end.
  Definition token_of (x : perr L T E) : option T :=
    match x with UnrecognizedToken _ t _ _ | ExtraToken _ t _ => Some t | _ => None end.
  Definition error_of (x : perr L T E) : option E :=
    match x with User e => Some e | _ => None end.
  Definition expected_of (x : perr L T E) : option (list string) :=
    match x with UnrecognizedEof _ exp | UnrecognizedToken _ _ _ exp => Some exp | _ => None end.
End Obs.

Lemma obs_inj {L T E} (x y : perr L T E) :
  tag x = tag y -> locations x = locations y -> token_of x = token_of y ->
  error_of x = error_of y -> expected_of x = expected_of y -> x = y.
Proof.
  intros Ht Hl Hk He Hx. destruct x, y; try discriminate Ht; cbn in *; congruence.
Qed.

Theorem map_location_obs {L T E LL} (f : L -> LL) (x : perr L T E) :
  tag (map_location f x) = tag x /\
  locations (map_location f x) = map f (locations x) /\
  token_of (map_location f x) = token_of x /\
  error_of (map_location f x) = error_of x /\
  expected_of (map_location f x) = expected_of x.
Proof. destruct x; cbv; repeat split. Qed.

(* state-passing version: the FnMut closure is called once per location, in field order
   (start, then end), and its results land in the same positions *)
Fixpoint thread {S A B} (op : S -> A -> B * S) (st : S) (l : list A) : list B * S :=
  match l with
  | [] => ([], st)
  | a :: r => let '(b, st1) := op st a in let '(bs, st2) := thread op st1 r in (b :: bs, st2)
  end.

Theorem map_location_st_order {L T E LL S} (op : S -> L -> LL * S) st (x : perr L T E) :
  let r := map_location_st op st x in
  (locations (fst r), snd r) = thread op st (locations x) /\
  tag (fst r) = tag x /\ token_of (fst r) = token_of x /\
  error_of (fst r) = error_of x /\ expected_of (fst r) = expected_of x.
Proof.
  destruct x as [l|l exp|s t e exp|s t e|er]; cbn; unfold maptok.
  - (* InvalidToken: one location *) destruct (op st l); repeat split.
  - (* UnrecognizedEof: one location *) destruct (op st l); repeat split.
  - (* UnrecognizedToken: start, then end *) destruct (op st s) as [s' st1]; cbn; destruct (op st1 e); repeat split.
  - (* ExtraToken: start, then end *) destruct (op st s) as [s' st1]; cbn; destruct (op st1 e); repeat split.
  - (* User: no location *) repeat split.
Qed.

Theorem map_location_id {L T E} (x : perr L T E) : map_location (fun l => l) x = x.
Proof. destruct x; reflexivity. Qed.
Theorem map_location_compose {L T E L2 L3} (f : L -> L2) (g : L2 -> L3) (x : perr L T E) :
  map_location g (map_location f x) = map_location (fun l => g (f l)) x.
Proof. destruct x; reflexivity. Qed.

Theorem map_token_obs {L T E TT} (f : T -> TT) (x : perr L T E) :
  tag (map_token f x) = tag x /\
  locations (map_token f x) = locations x /\
  token_of (map_token f x) = option_map f (token_of x) /\
  error_of (map_token f x) = error_of x /\
  expected_of (map_token f x) = expected_of x.
Proof. destruct x; cbv; repeat split. Qed.

Theorem map_error_obs {L T E EE} (f : E -> EE) (x : perr L T E) :
  tag (map_error f x) = tag x /\
  locations (map_error f x) = locations x /\
  token_of (map_error f x) = token_of x /\
  error_of (map_error f x) = option_map f (error_of x) /\
  expected_of (map_error f x) = expected_of x.
Proof. destruct x; cbv; repeat split. Qed.

Theorem from_error_obs {L T E} (e : E) :
  @from_error L T E e = User e.
Proof. reflexivity. Qed.

(** fmt_expected: "Expected one of a, b or c" *)
Definition comma_items (mid : list string) : string :=
  fold_right (fun e acc => ", " ++ e ++ acc) "" mid.

Definition expected_doc (l : list string) : string :=
  match l with
  | [] => ""
  | a :: r =>
    nl ++ "Expected one of " ++ a ++
    match rev r with
    | [] => ""
    | z :: rmid => comma_items (rev rmid) ++ " or " ++ z
    end
  end.

Lemma append_assoc (a b c : string) : (a ++ b) ++ c = a ++ (b ++ c).
Proof. induction a; simpl; congruence. Qed.

Lemma append_nil_r (a : string) : a ++ "" = a.
Proof. induction a; simpl; congruence. Qed.

Lemma go_mid : forall mid z i n, S i + List.length mid = n - 1 ->
  fmt_expected_go (S i) n (mid ++ [z]) = comma_items mid ++ " or " ++ z.
Proof.
  induction mid as [|m mid IH]; intros z i n Hn; cbn [app fmt_expected_go sep comma_items fold_right].
  - rewrite <- Hn, Nat.add_0_r, Nat.ltb_irrefl. cbn. now rewrite append_nil_r.
  - replace (Nat.ltb (S i) (n - 1)) with true by (symmetry; apply Nat.ltb_lt; cbn in Hn; lia).
    cbn. rewrite append_assoc. do 3 f_equal. apply IH. cbn in Hn. lia.
Qed.

Theorem fmt_expected_doc (l : list string) : fmt_expected l = expected_doc l.
Proof.
  destruct l as [|a r]; [reflexivity|].
  unfold fmt_expected, expected_doc. f_equal. cbn [fmt_expected_go sep].
  rewrite <- (append_assoc "Expected one of" " ").
  change ("Expected one of" ++ " ") with "Expected one of ". do 2 f_equal.
  induction r as [|z mid _] using rev_ind; [reflexivity|].
  rewrite rev_unit. cbv iota. rewrite rev_involutive. apply go_mid. cbn. rewrite app_length. cbn. lia.
Qed.

Example fmt_expected_three :
  fmt_expected ["a"; "b"; "c"] = nl ++ "Expected one of a, b or c".
Proof. reflexivity. Qed.
Example fmt_expected_one : fmt_expected ["a"] = nl ++ "Expected one of a".
Proof. reflexivity. Qed.
Example fmt_expected_two : fmt_expected ["a"; "b"] = nl ++ "Expected one of a or b".
Proof. reflexivity. Qed.

Section DisplayDoc.
  Context {L T E : Type} (showL : L -> string) (showT : T -> string) (showE : E -> string).
  Theorem display_doc (x : perr L T E) :
    display showL showT showE x =
    match x with
    | User e => showE e
    | InvalidToken l => "Invalid token at " ++ showL l
    | UnrecognizedEof l exp => "Unrecognized EOF found at " ++ showL l ++ expected_doc exp
    | UnrecognizedToken s t e exp =>
        "Unrecognized token `" ++ showT t ++ "` found at " ++ showL s ++ ":" ++ showL e
        ++ expected_doc exp
    | ExtraToken s t e => "Extra token " ++ showT t ++ " found at " ++ showL s ++ ":" ++ showL e
    end.
  Proof.
    destruct x as [l|l exp|s t e exp|s t e|er]; cbn [display].
    - (* InvalidToken *) reflexivity.
    - (* UnrecognizedEof *) rewrite fmt_expected_doc. reflexivity.
    - (* UnrecognizedToken *) rewrite fmt_expected_doc. reflexivity.
    - (* ExtraToken *) reflexivity.
    - (* User *) reflexivity.
  Qed.
End DisplayDoc.
