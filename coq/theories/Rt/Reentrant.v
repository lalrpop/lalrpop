(** C27: a generated parser value is immutable; every `parse` call owns its state (stack, token
    stream position, and -- with the built-in lexer -- a lazily filled DFA cache).  Two facts:
    (1) calls that own their state cannot influence each other, whatever the interleaving of their
        steps (a schedule is any list of call indices);
    (2) the lazily filled cache never changes what a call computes: a scan through a cache that only
        ever stores correct entries equals the scan without a cache. *)
From Coq Require Import List PeanoNat BinNat.
From LV Require Import Lex.Regex Lex.LexModel.
Import ListNotations.

Section Interleaving.
Variable St : Type.                 (* private state of one parse call *)
Variable shared : Type.             (* the parser value: tables, MatcherBuilder -- never written *)
Variable step : shared -> St -> St. (* one step of a call; a finished call is a fixed point *)

Fixpoint upd (l : list St) (i : nat) (f : St -> St) : list St :=
  match l, i with
  | [], _ => []
  | x :: r, O => f x :: r
  | x :: r, S j => x :: upd r j f
  end.

(* the system: one immutable parser, n calls in flight; the scheduler picks which call moves *)
Definition exec (p : shared) (sched : list nat) (l : list St) : list St :=
  fold_left (fun l i => upd l i (step p)) sched l.

Fixpoint iter (n : nat) (f : St -> St) (x : St) : St :=
  match n with O => x | S k => iter k f (f x) end.

Lemma nth_upd_same l : forall i f, nth_error (upd l i f) i = option_map f (nth_error l i).
Proof. induction l as [|x l IH]; intros [|i] f; simpl; auto. Qed.

Lemma nth_upd_other l : forall i j f, i <> j -> nth_error (upd l i f) j = nth_error l j.
Proof.
  induction l as [|x l IH]; intros [|i] [|j] f H; simpl; auto; try congruence.
Qed.

Theorem exec_component p sched : forall l i,
  nth_error (exec p sched l) i = option_map (iter (count_occ Nat.eq_dec sched i) (step p)) (nth_error l i).
Proof.
  unfold exec. induction sched as [|k sched IH]; intros l i; cbn [fold_left count_occ].
  - destruct (nth_error l i); reflexivity.
  - rewrite IH. destruct (Nat.eq_dec k i) as [->|Hne].
    + rewrite nth_upd_same. destruct (nth_error l i); reflexivity.
    + rewrite nth_upd_other by exact Hne. reflexivity.
Qed.

Definition finished (p : shared) (s : St) : Prop := step p s = s.

Lemma iter_finished p n s : finished p s -> iter n (step p) s = s.
Proof. intros H. induction n as [|n IH]; [reflexivity|]. cbn [iter]. rewrite H. exact IH. Qed.

Lemma iter_add n m f x : iter (n + m) f x = iter m f (iter n f x).
Proof. revert x. induction n as [|n IH]; intros x; [reflexivity|]. cbn [iter Nat.add]. apply IH. Qed.

Lemma iter_S n f x : iter (S n) f x = f (iter n f x).
Proof. rewrite <- Nat.add_1_r. apply iter_add. Qed.

(* hence: under ANY schedule in which call i gets at least the steps it needs, its final state is the
   one it reaches when it runs alone on a fresh parser *)
Theorem concurrent_equals_alone p sched l i s0 n :
  nth_error l i = Some s0 ->
  finished p (iter n (step p) s0) ->            (* alone, the call finishes within n steps *)
  n <= count_occ Nat.eq_dec sched i ->          (* the schedule lets it run at least that long *)
  nth_error (exec p sched l) i = Some (iter n (step p) s0).
Proof.
  intros Hs Hf Hn. rewrite exec_component, Hs. cbn [option_map]. f_equal.
  rewrite <- (Nat.sub_add _ _ Hn), Nat.add_comm, iter_add. apply iter_finished. exact Hf.
Qed.
End Interleaving.

(** the per-call lazy cache of the lexer: a partial memo table of derivative steps *)
Lemma re_eq_dec : forall a b : re, {a = b} + {a <> b}.
Proof. decide equality; apply N.eq_dec. Qed.

Section LazyCache.
Definition cache := list ((N * list re) * list re).

Fixpoint lookup (c : cache) (b : N) (rs : list re) : option (list re) :=
  match c with
  | [] => None
  | ((b', rs'), out) :: r =>
    if (N.eqb b b' && if list_eq_dec re_eq_dec rs rs' then true else false)%bool then Some out else lookup r b rs
  end.

Definition sound (c : cache) : Prop :=
  forall b rs out, lookup c b rs = Some out -> out = map (deriv b) rs.

(* next_state through the cache: a hit returns the stored entry, a miss computes and stores it; the
   cache may also be cleared at any point ([clear] is an arbitrary oracle) *)
Variable clear : nat -> bool.

Definition next_state (c : cache) (pos : nat) (b : N) (rs : list re) : cache * list re :=
  let c := if clear pos then [] else c in
  match lookup c b rs with
  | Some out => (c, out)
  | None => let out := map (deriv b) rs in (((b, rs), out) :: c, out)
  end.

Fixpoint scan_cached (c : cache) (rs : list re) (text : list N) (pos : nat) (best : option (nat * nat))
  : cache * option (nat * nat) :=
  let best' := match max_nullable rs 0 with Some j => Some (pos, j) | None => best end in
  match text with
  | [] => (c, best')
  | b :: t => let '(c', rs') := next_state c pos b rs in scan_cached c' rs' t (S pos) best'
  end.

Lemma sound_nil : sound [].
Proof. intros b rs out H. discriminate. Qed.

Lemma next_state_sound c pos b rs : sound c ->
  sound (fst (next_state c pos b rs)) /\ snd (next_state c pos b rs) = map (deriv b) rs.
Proof.
  intros Hc. unfold next_state.
  set (c0 := if clear pos then [] else c).
  assert (H0 : sound c0) by (unfold c0; destruct (clear pos); [apply sound_nil|exact Hc]).
  destruct (lookup c0 b rs) as [out|] eqn:El; cbn [fst snd].
  - split; [exact H0|]. apply H0. exact El.
  - split; [|reflexivity]. intros b' rs' out H. cbn [lookup] in H.
    destruct (N.eqb b' b && (if list_eq_dec re_eq_dec rs' rs then true else false))%bool eqn:E.
    + apply andb_prop in E. destruct E as [E1 E2]. apply N.eqb_eq in E1.
      destruct (list_eq_dec re_eq_dec rs' rs) as [->|]; [|discriminate]. subst b'. inversion H. reflexivity.
    + apply H0. exact H.
Qed.

Theorem scan_cached_spec text : forall c rs pos best, sound c ->
  snd (scan_cached c rs text pos best) = scan rs text pos best /\ sound (fst (scan_cached c rs text pos best)).
Proof.
  induction text as [|b t IH]; intros c rs pos best Hc; cbn [scan_cached scan].
  - split; [reflexivity|exact Hc].
  - destruct (next_state_sound c pos b rs Hc) as [Hs He].
    destruct (next_state c pos b rs) as [c' rs'] eqn:En. cbn [fst snd] in *. subst rs'.
    apply IH. exact Hs.
Qed.
End LazyCache.
