(** C03 — a grammar is accepted exactly when it is deterministic for the chosen algorithm.
    Coq part (accept direction): tables that pass the validator exist only for unambiguous grammars,
    and the parser built from them is correct (C01) -- so lalrpop never emits a (validated) parser for
    an ambiguous grammar.  The reject direction (a reported conflict is a real conflict of the canonical
    LR(1) / LALR(1) automaton, and lane-table never rejects an LR(1) grammar) is compared per run with a
    textbook construction; partial. *)
From LV Require Import LR.Driver LR.Validator LR.Soundness LR.Completeness LR.Main.

Theorem C03_validated_tables_only_for_unambiguous_grammars : forall A C, valid A C = true ->
  forall t1 t2, wfp A t1 (Nt (start_nt A)) -> wfp A t2 (Nt (start_nt A)) -> yield t1 = yield t2 -> t1 = t2.
Proof. intros A C Hv. exact (unambiguous A C Hv). Qed.
Print Assumptions C03_validated_tables_only_for_unambiguous_grammars.
