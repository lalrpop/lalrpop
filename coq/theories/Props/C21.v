(** C21 — non-forced builds never leave a stale or foreign output.
    [gen], [hash], the version line and the newline are arbitrary parameters; the only assumptions
    are that the hash line is injective in the grammar text and that header lines contain no newline. *)
From Coq Require Import List.
From LV Require Import Build.Rebuild.

Theorem C21_after_any_history_a_build_is_current :
  forall (text byte : Type) gen hash ver (nl : byte)
    (hash_inj : forall a b : text, hash a = hash b -> a = b)
    (byte_eq_dec : forall a b : list byte, {a = b} + {a <> b})
    (ver_no_nl : ~ In nl ver) (hash_no_nl : forall t, ~ In nl (hash t))
    is_nl (is_nl_spec : forall c, is_nl c = true <-> c = nl)
    ops s0,
  Inv text byte gen hash ver nl byte_eq_dec is_nl s0 ->
  Forall (op_ok text byte gen hash ver nl byte_eq_dec is_nl) ops ->
  let s := fold_left (step text byte gen hash ver nl byte_eq_dec is_nl) ops s0 in
  out text byte (build text byte gen hash ver nl byte_eq_dec is_nl false s) =
  match gen (src text byte s) with Some b => Some (file_of text byte hash ver nl (src text byte s) b) | None => None end.
Proof. exact history_then_build. Qed.
Print Assumptions C21_after_any_history_a_build_is_current.

Theorem C21_current_output_is_left_untouched :
  forall (text byte : Type) gen hash ver (nl : byte)
    (hash_inj : forall a b : text, hash a = hash b -> a = b)
    (byte_eq_dec : forall a b : list byte, {a = b} + {a <> b})
    (ver_no_nl : ~ In nl ver) (hash_no_nl : forall t, ~ In nl (hash t))
    is_nl (is_nl_spec : forall c, is_nl c = true <-> c = nl) s,
  Inv text byte gen hash ver nl byte_eq_dec is_nl s ->
  out text byte (build text byte gen hash ver nl byte_eq_dec is_nl false s) =
  out text byte (build text byte gen hash ver nl byte_eq_dec is_nl true s) /\
  (out text byte s = out text byte (build text byte gen hash ver nl byte_eq_dec is_nl true s) ->
   out text byte s <> None ->
   writes text byte (build text byte gen hash ver nl byte_eq_dec is_nl false s) = writes text byte s).
Proof. exact build_current. Qed.
Print Assumptions C21_current_output_is_left_untouched.
