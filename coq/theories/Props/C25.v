(** C25 — generated code is hygienic. *)
From Coq Require Import List.
From LV Require Import Norm.Hygiene.

(* the prefix search always ends, with a run of at least two underscores *)
Theorem C25_prefix_search_terminates : forall input, exists q, prefix_of input = Some q.
Proof. exact prefix_exists. Qed.
Print Assumptions C25_prefix_search_terminates.

Theorem C25_prefix_is_underscores : forall input q, prefix_of input = Some q ->
  Forall (fun c => c = us) q /\ 2 <= length q.
Proof. exact prefix_underscores. Qed.
Print Assumptions C25_prefix_is_underscores.

(* nothing that occurs in the grammar text -- in particular no user identifier, whatever it was
   renamed to -- equals a name built from the prefix *)
Theorem C25_prefixed_names_are_fresh : forall input q, prefix_of input = Some q ->
  forall before u after suffix, input = before ++ u ++ after -> u <> q ++ suffix.
Proof. exact generated_names_are_fresh. Qed.
Print Assumptions C25_prefixed_names_are_fresh.
