(** C19 — accepted grammars compile: the types declared for the created nonterminals fit the values
    their actions build (model level; the Rust type checker itself is the per-run oracle). *)
From Coq Require Import List.
From LV Require Import Norm.TyInfer.

Theorem C19_plus_actions_build_vecs : forall e v t,
  has_type e t -> has_type (act_vec_one e) (TVec t) /\ (has_type v (TVec t) -> has_type (act_vec_push v e) (TVec t)).
Proof. intros e v t H. split; [apply vec_one_typed; exact H|intros Hv; apply vec_push_typed; assumption]. Qed.
Print Assumptions C19_plus_actions_build_vecs.

Theorem C19_star_and_question_actions : forall e t,
  has_type act_vec_empty (TVec t) /\ has_type act_none (TOpt t) /\ (has_type e t -> has_type (act_some e) (TOpt t)).
Proof. intros e t. split; [apply vec_empty_typed|split; [apply none_typed|apply some_typed]]. Qed.
Print Assumptions C19_star_and_question_actions.

Theorem C19_group_value_has_maybe_tuple_type : forall sel ts,
  Forall2 has_type sel ts -> has_type (act_group sel) (maybe_tuple ts).
Proof. exact group_typed. Qed.
Print Assumptions C19_group_value_has_maybe_tuple_type.
