(** C22 — a crash during generation never leaves output that a later build accepts.
    Model: Build/Rebuild.v.  With the temporary-file-then-rename discipline the output path holds
    either nothing or a complete file at every crash point, so the next non-forced build regenerates
    the correct output.  The in-place discipline of the original code is refuted by a witness
    (crash right after the header): that was a genuine defect, repaired (known_findings.txt). *)
From Coq Require Import List.
From LV Require Import Build.Rebuild.
Import ListNotations.

Theorem C22_crash_then_build_is_correct :
  forall (text byte : Type) gen hash ver (nl : byte)
    (byte_eq_dec : forall a b : list byte, {a = b} + {a <> b}) is_nl s b n,
  gen (src text byte s) = Some b ->
  let crashed := {| src := src text byte s; out := crash_via_temp text byte (src text byte s) b n; writes := writes text byte s |} in
  out text byte (build text byte gen hash ver nl byte_eq_dec is_nl false crashed) =
  Some (file_of text byte hash ver nl (src text byte s) b).
Proof. exact crash_via_temp_safe. Qed.
Print Assumptions C22_crash_then_build_is_correct.

Theorem C22_in_place_writes_refuted :
  forall (text byte : Type) gen hash ver (nl : byte)
    (hash_inj : forall a b : text, hash a = hash b -> a = b)
    (byte_eq_dec : forall a b : list byte, {a = b} + {a <> b})
    (ver_no_nl : ~ In nl ver) (hash_no_nl : forall t, ~ In nl (hash t))
    is_nl (is_nl_spec : forall c, is_nl c = true <-> c = nl) s b c,
  gen (src text byte s) = Some (c :: b) ->
  let n := length (ver ++ nl :: hash (src text byte s) ++ [nl]) in
  let crashed := {| src := src text byte s; out := crash_in_place text byte hash ver nl (src text byte s) (c :: b) n; writes := writes text byte s |} in
  out text byte (build text byte gen hash ver nl byte_eq_dec is_nl false crashed) <> Some (file_of text byte hash ver nl (src text byte s) (c :: b)) /\
  out text byte (build text byte gen hash ver nl byte_eq_dec is_nl false crashed) <> None.
Proof. exact crash_in_place_refuted. Qed.
Print Assumptions C22_in_place_writes_refuted.
