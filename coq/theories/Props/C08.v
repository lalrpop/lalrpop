(** C08 — generated parsers always terminate and never panic.
    Stated here for the table-driven parser on validated tables, with and without error recovery: no
    panic site is reached (index out of bounds, unwrap on None, subtraction underflow, "symbol type
    mismatch", the explicit panic!s); every run ends (LR/Termination.v, LR/TerminationRec.v), each reduce
    phase within an explicit bound; an answer does not depend on the budget.  For the built-in lexer:
    token progress and termination of the token stream. *)
From Coq Require Import List.
From LV Require Import LR.Driver LR.Validator LR.Safety LR.Locality LR.NoPanic LR.Termination LR.NoPanicRec LR.TerminationRec LR.Main.
From LV Require Import Lex.LexModel Lex.LexProps.

Theorem C08_parser_never_panics : forall A C,
  shape A C = true -> exact A C = true -> uses_recovery A = false ->
  forall orc fuel w r s,
  Forall (fun k => match tk_idx k with Some t => t < tn_names A | None => True end) w ->
  drive A orc fuel (map IOk w) = (r, s) -> r <> RPanic.
Proof. intros A C Hs He _. exact (no_panic A C Hs He). Qed.
Print Assumptions C08_parser_never_panics.

(* the simulation behind expected-token lists and recovery ([accepts]) never panics either, on any
   stack the parser can have built *)
Theorem C08_accepts_never_panics : forall A C,
  shape A C = true -> exact A C = true ->
  forall fuel l a, SLinked A C l -> la_ok A a -> accepts A fuel l a <> APanic.
Proof. exact accepts_no_panic. Qed.
Print Assumptions C08_accepts_never_panics.

(** the built-in lexer: every token consumes at least one byte and strictly shortens the remaining
    text, so a token stream has at most |text| tokens and the matcher never yields empty tokens forever
    (this is the repaired behaviour: see known_findings.txt) *)
Theorem C08_lexer_token_progress : forall fuel pats text consumed start idx len text' c',
  lex_next pats fuel text consumed = (LTok start idx len, text', c') ->
  0 < len /\ length text' < length text.
Proof. exact token_progress. Qed.
Print Assumptions C08_lexer_token_progress.

Theorem C08_lexer_terminates : forall fuel pats text consumed,
  length text < fuel -> ~ In LFuel (tokens pats fuel text consumed).
Proof. exact tokens_terminate. Qed.
Print Assumptions C08_lexer_terminates.

(* termination on sentences: a bound on the loop iterations exists beyond which the answer is the
   derivation tree, whatever the budget (fuel counts loop iterations and simulation steps) *)
Theorem C08_terminates_on_sentences : forall A C, valid A C = true -> uses_recovery A = false ->
  forall t, Completeness.wfp A t (Nt (start_nt A)) ->
  exists n, forall fuel, n <= fuel -> exists s, drive A Completeness.no_fail fuel (map IOk (Soundness.yield t)) = (ROk t, s).
Proof. intros A C Hv Hn. exact (Main.parse_ok_complete A C Hv). Qed.
Print Assumptions C08_terminates_on_sentences.

(* a run that ends (with any answer other than "budget exhausted") ends the same way under every
   larger budget: the budget never changes an answer *)
Theorem C08_answers_do_not_depend_on_the_budget : forall A orc, uses_recovery A = false ->
  forall f input r s, drive A orc f input = (r, s) -> r <> RFuel -> forall f', f <= f' -> drive A orc f' input = (r, s).
Proof. intros A orc Hn. exact (Locality.drive_mono A Hn orc). Qed.
Print Assumptions C08_answers_do_not_depend_on_the_budget.

(** termination on every input (grammars without error recovery): for any token sequence -- sentences,
    non-sentences, lexer errors in the stream, unknown tokens -- and any behaviour of fallible actions,
    a budget exists beyond which the driver never answers "budget exhausted": the loop of
    Parser::drive, the reductions under one lookahead and the simulation behind the expected-token
    list all end.  The validator's [terminates] certificate is what carries the argument. *)
Theorem C08_parser_terminates_on_every_input : forall A C,
  shape A C = true -> exact A C = true -> terminates A C = true -> uses_recovery A = false ->
  forall orc input, Forall (Soundness.item_ok A) input ->
  exists n, forall fuel, n <= fuel -> fst (drive A orc fuel input) <> RFuel.
Proof. exact parser_terminates. Qed.
Print Assumptions C08_parser_terminates_on_every_input.

(* the reductions prescribed for one lookahead on any stack the parser can have built end within an
   explicit bound: ((n_states + 1) + depth * (n_states + 2)) * (c_F + 1) + c_F + 1 steps *)
Theorem C08_reduce_phase_is_bounded : forall A C,
  shape A C = true -> terminates A C = true ->
  forall a l, la_ok A a -> SLinked A C l -> siter A (bound A C (length l)) a l = None.
Proof. exact reduce_phase_halts. Qed.
Print Assumptions C08_reduce_phase_is_bounded.

(* the simulation used for expected tokens ends within the same bound *)
Theorem C08_accepts_is_bounded : forall A C,
  shape A C = true -> exact A C = true -> terminates A C = true ->
  forall l a f, SLinked A C l -> la_ok A a -> bound A C (length l) <= f -> accepts A f l a <> AFuel.
Proof. exact accepts_bounded. Qed.
Print Assumptions C08_accepts_is_bounded.

(** panic freedom with error recovery: on validated tables, with or without `!`, no input drives the
    parser into a panic site -- including those of Parser::error_recovery (the reductions under the
    error lookahead, table lookups and the accepts simulation while scanning for a recovery state, the
    lookup of the error action on the kept stack, "cannot find token at EOF") *)
Theorem C08_parser_never_panics_with_recovery : forall A C,
  shape A C = true -> exact A C = true ->
  forall orc fuel w r s,
  Forall (fun k => match tk_idx k with Some t => t < tn_term A | None => True end) w ->
  drive A orc fuel (map IOk w) = (r, s) -> r <> RPanic.
Proof. exact no_panic_with_recovery. Qed.
Print Assumptions C08_parser_never_panics_with_recovery.

(** termination with error recovery: on validated tables, with or without `!`, for every input and every
    behaviour of fallible actions a budget exists beyond which the driver never answers "budget
    exhausted".  Inside error_recovery the reductions under the error lookahead, every accepts
    simulation of the recovery-state scan and the token-dropping loop end; across recoveries, a
    recovery hands back a lookahead the simulation has shown consumable from the new stack, so the
    parser shifts it (or ends) before it can fail again -- there is no recovery loop. *)
Theorem C08_parser_terminates_on_every_input_with_recovery : forall A C,
  shape A C = true -> exact A C = true -> terminates A C = true ->
  forall orc input, Forall (RecoverySound.item_ok A) input ->
  exists n, forall fuel, n <= fuel -> fst (drive A orc fuel input) <> RFuel.
Proof. exact parser_terminates_rec. Qed.
Print Assumptions C08_parser_terminates_on_every_input_with_recovery.

(* for ANY tables, with or without recovery: an answer other than "budget exhausted" is the answer under
   every larger budget *)
Theorem C08_answers_do_not_depend_on_the_budget_with_recovery : forall A orc f input r s,
  drive A orc f input = (r, s) -> r <> RFuel -> forall f', f <= f' -> drive A orc f' input = (r, s).
Proof. exact drive_mono_rec. Qed.
Print Assumptions C08_answers_do_not_depend_on_the_budget_with_recovery.
