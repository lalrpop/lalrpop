(** C28 — ParseError helpers transform and display errors as documented. *)
From Coq Require Import List String.
From LV Require Import Rt.ParseError Rt.ParseErrorProofs.
Import ListNotations.
Local Open Scope string_scope.

(* map_location applies f to every location (both span ends, start first) and leaves
   variant, token, user error and expected list alone *)
Theorem C28_map_location : forall {L T E LL} (f : L -> LL) (x : perr L T E),
  tag (map_location f x) = tag x /\
  locations (map_location f x) = map f (locations x) /\
  token_of (map_location f x) = token_of x /\
  error_of (map_location f x) = error_of x /\
  expected_of (map_location f x) = expected_of x.
Proof. exact @map_location_obs. Qed.
Print Assumptions C28_map_location.

(* the FnMut closure is called exactly once per location, in field order *)
Theorem C28_map_location_call_order :
  forall {L T E LL S} (op : S -> L -> LL * S) st (x : perr L T E),
  let r := map_location_st op st x in
  (locations (fst r), snd r) = thread op st (locations x) /\
  tag (fst r) = tag x /\ token_of (fst r) = token_of x /\
  error_of (fst r) = error_of x /\ expected_of (fst r) = expected_of x.
Proof. exact @map_location_st_order. Qed.
Print Assumptions C28_map_location_call_order.

Theorem C28_map_token : forall {L T E TT} (f : T -> TT) (x : perr L T E),
  tag (map_token f x) = tag x /\
  locations (map_token f x) = locations x /\
  token_of (map_token f x) = option_map f (token_of x) /\
  error_of (map_token f x) = error_of x /\
  expected_of (map_token f x) = expected_of x.
Proof. exact @map_token_obs. Qed.
Print Assumptions C28_map_token.

Theorem C28_map_error : forall {L T E EE} (f : E -> EE) (x : perr L T E),
  tag (map_error f x) = tag x /\
  locations (map_error f x) = locations x /\
  token_of (map_error f x) = token_of x /\
  error_of (map_error f x) = option_map f (error_of x) /\
  expected_of (map_error f x) = expected_of x.
Proof. exact @map_error_obs. Qed.
Print Assumptions C28_map_error.

(* observations determine the value, so the five clauses above pin the result completely *)
Theorem C28_observations_complete : forall {L T E} (x y : perr L T E),
  tag x = tag y -> locations x = locations y -> token_of x = token_of y ->
  error_of x = error_of y -> expected_of x = expected_of y -> x = y.
Proof. exact @obs_inj. Qed.
Print Assumptions C28_observations_complete.

Theorem C28_display : forall {L T E} (showL : L -> string) (showT : T -> string)
    (showE : E -> string) (x : perr L T E),
  display showL showT showE x =
  match x with
  | User e => showE e
  | InvalidToken l => "Invalid token at " ++ showL l
  | UnrecognizedEof l exp => "Unrecognized EOF found at " ++ showL l ++ expected_doc exp
  | UnrecognizedToken s t e exp =>
      "Unrecognized token `" ++ showT t ++ "` found at " ++ showL s ++ ":" ++ showL e
      ++ expected_doc exp
  | ExtraToken s t e => "Extra token " ++ showT t ++ " found at " ++ showL s ++ ":" ++ showL e
  end.
Proof. exact @display_doc. Qed.
Print Assumptions C28_display.

(* the documented list form: nothing for an empty list; otherwise a newline, then
   "Expected one of a", then ", m" for every middle entry, then " or z" for the last *)
Theorem C28_expected_form : forall l : list string,
  fmt_expected l =
  match l with
  | [] => ""
  | a :: r => nl ++ "Expected one of " ++ a ++
      match rev r with
      | [] => ""
      | z :: rmid => comma_items (rev rmid) ++ " or " ++ z
      end
  end.
Proof. exact fmt_expected_doc. Qed.
Print Assumptions C28_expected_form.

Theorem C28_from : forall {L T E} (e : E), @from_error L T E e = User e.
Proof. exact @from_error_obs. Qed.
Print Assumptions C28_from.
