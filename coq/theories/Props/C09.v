(** C09 — the built-in lexer tokenizes by longest match with documented precedence. *)
From Coq Require Import List.
From LV Require Import Lex.Regex Lex.LexModel Lex.LexProps Lex.TokenOrder.
Import ListNotations.

(* one call of the matcher at a position picks the longest prefix matched by any pattern, and among
   the patterns matching exactly that prefix the one with the largest table index *)
Theorem C09_longest_match_largest_index : forall pats text len idx,
  pick pats text = Some (len, idx) ->
  len <= length text /\ idx < length pats /\
  matches (pat pats idx) (firstn len text) /\
  (forall j L, j < length pats -> len < L -> L <= length text -> ~ matches (pat pats j) (firstn L text)) /\
  (forall j, idx < j -> j < length pats -> ~ matches (pat pats j) (firstn len text)).
Proof. exact pick_longest_max. Qed.
Print Assumptions C09_longest_match_largest_index.

(* nothing matches at a position => no pattern matches any prefix there (InvalidToken) *)
Theorem C09_invalid_means_nothing_matches : forall pats text,
  pick pats text = None ->
  forall j L, j < length pats -> L <= length text -> ~ matches (pat pats j) (firstn L text).
Proof. exact pick_none. Qed.
Print Assumptions C09_invalid_means_nothing_matches.

(* Matcher::next: the token returned is the pick at the position reached by skipping non-empty skip
   matches; its span is [start, start+len) in bytes; InvalidToken is reported at the first position
   where nothing matches (or only an empty skip match exists); skipped text yields no token *)
Theorem C09_next_token : forall fuel pats text consumed r text' c',
  lex_next pats fuel text consumed = (r, text', c') ->
  match r with
  | LTok start idx len =>
      exists t0, skips pats text consumed t0 start /\ t0 <> [] /\ 0 < len /\
                 pick pats t0 = Some (len, idx) /\ snd (nth idx pats (RNone, false)) = false /\
                 text' = skipn len t0 /\ c' = start + len
  | LInvalid loc =>
      exists t0, skips pats text consumed t0 loc /\ t0 <> [] /\
                 (pick pats t0 = None \/ exists idx, pick pats t0 = Some (0, idx))
  | LEnd => skips pats text consumed [] c'
  | LFuel => True
  end.
Proof. intros fuel pats text consumed r text' c' H. apply lex_next_spec in H. destruct r; auto. Qed.
Print Assumptions C09_next_token.

(* documented precedence: earlier rung beats later rung; in a rung a quoted literal beats a regex *)
Theorem C09_earlier_rung_wins : forall n e1 e2,
  e_rung e1 < e_rung e2 -> e_rung e2 <= n -> prec n e2 < prec n e1.
Proof. exact earlier_rung_wins. Qed.
Print Assumptions C09_earlier_rung_wins.
Theorem C09_literal_beats_regex : forall n e1 e2,
  e_rung e1 = e_rung e2 -> e_lit e1 = true -> e_lit e2 = false -> prec n e2 < prec n e1.
Proof. exact literal_beats_regex. Qed.
Print Assumptions C09_literal_beats_regex.

(* in a table sorted by precedence (what lalrpop emits; checked per run), the token chosen has the
   highest precedence among all patterns matching the longest prefix *)
Theorem C09_winner_has_highest_precedence : forall n ents pats text len idx j,
  length ents = length pats -> sorted_by_prec n ents = true ->
  pick pats text = Some (len, idx) -> j < length pats ->
  matches (pat pats j) (firstn len text) ->
  prec n (nth j ents {| e_rung := 0; e_lit := false |}) <= prec n (nth idx ents {| e_rung := 0; e_lit := false |}).
Proof. exact winner_has_highest_precedence. Qed.
Print Assumptions C09_winner_has_highest_precedence.
