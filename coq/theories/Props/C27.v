(** C27 — generated parsers are reentrant and safe to share across threads (model level: every call
    owns its state; the shared parser value is never written). *)
From Coq Require Import List PeanoNat.
From LV Require Import Lex.LexModel Rt.Reentrant.

(* whatever the interleaving of the steps of the calls in flight, call i ends in the state it reaches
   when it runs alone, as soon as the schedule gives it the steps it needs *)
Theorem C27_concurrent_call_equals_the_call_alone :
  forall (St shared : Type) (step : shared -> St -> St) p sched l i s0 n,
  nth_error l i = Some s0 ->
  finished St shared step p (iter St n (step p) s0) ->
  n <= count_occ Nat.eq_dec sched i ->
  nth_error (exec St shared step p sched l) i = Some (iter St n (step p) s0).
Proof. exact concurrent_equals_alone. Qed.
Print Assumptions C27_concurrent_call_equals_the_call_alone.

(* the state of a call after any schedule depends only on how many steps it was given *)
Theorem C27_calls_do_not_interfere :
  forall (St shared : Type) (step : shared -> St -> St) p sched l i,
  nth_error (exec St shared step p sched l) i =
  option_map (iter St (count_occ Nat.eq_dec sched i) (step p)) (nth_error l i).
Proof. exact exec_component. Qed.
Print Assumptions C27_calls_do_not_interfere.

(* the lazily filled, arbitrarily cleared per-call DFA cache never changes the result of a scan *)
Theorem C27_lazy_cache_is_transparent : forall clear text c rs pos best, sound c ->
  snd (scan_cached clear c rs text pos best) = scan rs text pos best.
Proof. intros clear text c rs pos best H. apply scan_cached_spec, H. Qed.
Print Assumptions C27_lazy_cache_is_transparent.
