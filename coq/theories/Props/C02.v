(** C02 — parse results are the grammar's actions evaluated over the derivation, each user action
    exactly once per tree node, in post-order. *)
From Coq Require Import List.
From LV Require Import LR.Driver LR.Validator LR.Soundness LR.Completeness LR.Main.
Import ListNotations.

(* the sequence of user actions that ran (trace order) followed by the internal start production
   is the post-order traversal of the returned derivation tree; each action received exactly the
   values (subtrees) of its children, left to right, because the tree IS the value built from them *)
Theorem C02_actions_postorder : forall A C, valid A C = true -> uses_recovery A = false ->
  forall orc fuel w v s, Forall (tok_in_range A) w ->
  drive A orc fuel (map IOk w) = (ROk v, s) ->
  acts (trace s) ++ [start_prod A] = postorder v /\ yield v = w.
Proof.
  intros A C Hv Hn orc fuel w v s Hw H.
  destruct (parse_ok_sound A C Hv Hn orc fuel w v s Hw H) as (_ & Hy & Hp). auto.
Qed.
Print Assumptions C02_actions_postorder.

(* the derivation tree is unique, so "the" derivation in the property is well defined *)
Theorem C02_unique_derivation : forall A C, valid A C = true -> uses_recovery A = false ->
  forall t1 t2, wfp A t1 (Nt (start_nt A)) -> wfp A t2 (Nt (start_nt A)) ->
  yield t1 = yield t2 -> t1 = t2.
Proof. intros A C Hv _. exact (unambiguous A C Hv). Qed.
Print Assumptions C02_unique_derivation.
