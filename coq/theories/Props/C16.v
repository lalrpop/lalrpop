(** C16 — error recovery.
    Proved here: an input derivable without `!` is parsed without any recovery -- the run returns
    exactly its derivation tree, which contains no error node -- for every validated table, with or
    without recovery enabled.
    Also proved: whatever is popped or dropped during recovery, a tree the parser returns is a derivation
    tree of the start symbol whose error nodes stand exactly where the grammar has `!` (for every
    validated table, every input, every oracle of failing actions).
    Not proved yet (partial): the token accounting (leaves a subsequence of the input, every other token
    covered by exactly one error span, ordered disjoint spans, dropped lists in order).  The check
    decides those clauses on every explored input directly on the implementation's output, and ties
    the recovery model (LR/Driver.v error_recovery) to Parser::error_recovery by in-Coq evaluation. *)
From Coq Require Import List BinInt.
From LV Require Import LR.Driver LR.Validator LR.Safety LR.Soundness LR.Completeness LR.RecoverySound LR.TokenAccount LR.SpanAccount LR.Main.
Import ListNotations.

Theorem C16_sentences_need_no_recovery : forall A C, valid A C = true ->
  forall t, wfp A t (Nt (start_nt A)) ->
  exists n, forall fuel, n <= fuel -> exists s, drive A no_fail fuel (map IOk (yield t)) = (ROk t, s).
Proof. exact parse_ok_complete. Qed.
Print Assumptions C16_sentences_need_no_recovery.

(* a derivation tree without `!` has no error node *)
Theorem C16_derivation_has_no_error_node : forall A t X, wfp A t X -> pure t.
Proof. exact wfp_pure. Qed.
Print Assumptions C16_derivation_has_no_error_node.

(* a recovered result is still a derivation tree: error nodes only where the grammar has `!` *)
Theorem C16_recovered_tree_is_a_derivation : forall A C, valid A C = true ->
  forall orc fuel w v s,
  Forall (fun k => match tk_idx k with Some t => t < tn_term A | None => True end) w ->
  drive A orc fuel (map IOk w) = (ROk v, s) -> wf A v (Nt (start_nt A)).
Proof.
  intros A C Hv orc fuel w v s Hw H.
  destruct (valid_proj A C Hv) as (Hs & _ & He & _).
  exact (recovered_tree_is_a_derivation A C Hs He orc fuel w v s Hw H).
Qed.
Print Assumptions C16_recovered_tree_is_a_derivation.

(** token accounting, for ANY tables (validated or not), any input, oracle and budget, with or without
    recovery: what a returned tree records of the input -- its leaves and the dropped_tokens lists of
    its error nodes, read left to right -- is a subsequence of the input tokens in input order.  So the
    leaves are a subsequence of the input, every dropped_tokens list holds input tokens in order, and
    no token is recorded twice or out of order across leaves and error nodes. *)
Theorem C16_recorded_tokens_are_a_subsequence_of_the_input : forall A orc fuel input v s,
  drive A orc fuel input = (ROk v, s) -> Subseq (rec v) (toks input).
Proof. exact recorded_tokens_are_a_subsequence. Qed.
Print Assumptions C16_recorded_tokens_are_a_subsequence_of_the_input.

Theorem C16_leaves_are_a_subsequence_of_the_input : forall A orc fuel input v s,
  drive A orc fuel input = (ROk v, s) -> Subseq (yield v) (toks input).
Proof. exact leaves_are_a_subsequence. Qed.
Print Assumptions C16_leaves_are_a_subsequence_of_the_input.

Theorem C16_dropped_lists_hold_input_tokens_in_order : forall A orc fuel input v s,
  drive A orc fuel input = (ROk v, s) -> Forall (fun d => Subseq d (toks input)) (drops v).
Proof. exact dropped_lists_are_subsequences. Qed.
Print Assumptions C16_dropped_lists_hold_input_tokens_in_order.

(** span accounting.  [AccL kids segs lo hi] (LR/SpanAccount.v): the subtrees kids account, left to
    right, for exactly the token segments segs -- a leaf for its token, a node for its children's
    segments, an error node for the tokens it swallowed (those of popped stack entries, then the
    dropped ones), all of which lie inside its span -- with spans well-formed and ordered.
    For ANY tables, on an input whose tokens have non-negative, well-formed, pairwise ordered spans, the
    children of a returned root account for a contiguous part of the input. *)
Theorem C16_every_token_is_accounted_for : forall A orc fuel input p k ks s,
  sorted (toks input) ->
  drive A orc fuel input = (ROk (Node p (k :: ks)), s) ->
  exists pre_b segs lo hi lafin, AccL (k :: ks) segs lo hi /\
    (pre_b ++ concat segs) ++ SpanAccount.latok lafin ++ toks (rest s) = toks input /\
    (length (k :: ks) = length (stk s) -> pre_b = []).
Proof. exact tokens_accounted_with_spans. Qed.
Print Assumptions C16_every_token_is_accounted_for.

(* on validated tables (with or without `!`): the children of the root partition the WHOLE input --
   every token is a leaf or lies inside the span of the error node that swallowed it -- and the
   error-node spans of the tree, left to right, are well-formed, ordered and disjoint *)
Theorem C16_whole_input_accounted_on_validated_tables : forall A C orc fuel w p k ks s,
  shape A C = true -> exact A C = true -> start_eof_only A = true ->
  Forall (RecoverySound.tok_ok A) w -> sorted w ->
  drive A orc fuel (map IOk w) = (ROk (Node p (k :: ks)), s) ->
  exists segs lo hi, AccL (k :: ks) segs lo hi /\ concat segs = w /\ spchain lo (flat_map errspans (k :: ks)) hi.
Proof. exact tokens_accounted_on_validated_tables. Qed.
Print Assumptions C16_whole_input_accounted_on_validated_tables.

(* what the relation gives: spans contain their tokens *)
Theorem C16_accounted_tokens_lie_inside_the_span : forall t seg lo hi,
  Acc t seg lo hi -> Forall tok_wf seg -> (lo <= hi)%Z /\ Within lo hi seg.
Proof. exact acc_facts. Qed.
Print Assumptions C16_accounted_tokens_lie_inside_the_span.

(* "exactly one": the error-node spans of the tree are ordered (spchain, theorem above), hence a token of
   positive width lies inside at most one of them; the accounting gives the one that swallowed it *)
Theorem C16_a_token_lies_in_at_most_one_error_span : forall l lo hi i j s1 s2 k,
  spchain lo l hi -> i < j -> nth_error l i = Some s1 -> nth_error l j = Some s2 ->
  (tk_lo k < tk_hi k)%Z -> within (fst s1) (snd s1) k -> within (fst s2) (snd s2) k -> False.
Proof. exact spchain_disjoint. Qed.
Print Assumptions C16_a_token_lies_in_at_most_one_error_span.
