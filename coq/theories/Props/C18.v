(** C18 — lalrpop never panics.  The theorems here are the validation/expansion contracts of the
    modelled passes: the `expect` in normalize/precedence is reached exactly when an associativity is in
    force at the first precedence level, and the rule checked by validate_precedence (decision
    procedure prevalidb, tied to the code by the C12/C18 checks) excludes that.  Absence of panics for
    all texts is searched for, not proved (see DESIGN.md). *)
From Coq Require Import List.
From LV Require Import Norm.Prec Norm.PrecProps.
Import ListNotations.

Theorem C18_precedence_expect_reached_iff : forall alts,
  expand alts = Panic <->
  exists x, In x (resolve 0 AAll alts) /\ fst (fst x) = hd 0 (levels (resolve 0 AAll alts)) /\ snd (fst x) <> AAll.
Proof. intros alts. exact (unless_panic _ _ _ (expand_unless alts)). Qed.
Print Assumptions C18_precedence_expect_reached_iff.

Theorem C18_validation_rule_excludes_the_expect : forall alts,
  prevalidb alts = true -> exists r, expand alts = Ok r.
Proof. intros alts H. apply prevalid_no_panic. apply prevalidb_spec. exact H. Qed.
Print Assumptions C18_validation_rule_excludes_the_expect.

(* the rule as it was before the repair (only alternatives with their own precedence attribute were
   looked at) does not exclude it: an inherited first level with an assoc attribute *)
Theorem C18_unrepaired_rule_refuted :
  let alts := [ {| p_prec := Some 1; p_assoc := None; p_syms := [POther 0] |};
                {| p_prec := None; p_assoc := Some ALeft; p_syms := [PSelf; POther 1; PSelf] |} ] in
  (forall a, In a alts -> p_prec a <> None -> p_assoc a = None) /\ expand alts = Panic.
Proof.
  split; [|reflexivity]. intros a [<-|[<-|[]]] H; [reflexivity|]. exfalso. apply H. reflexivity.
Qed.
Print Assumptions C18_unrepaired_rule_refuted.
