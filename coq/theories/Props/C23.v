(** C23 — each grammar file maps to exactly one output at the documented path. *)
From Coq Require Import List String.
From LV Require Import Build.Paths.
Import ListNotations.

Theorem C23_beside_the_input_without_out_dir : forall dir f i, has_ws f = false ->
  resolve {| in_dir := i; out_dir := None |} dir f = ROut (dir ++ [sapp (stem f) ".rs"%string]).
Proof. exact resolve_beside. Qed.
Print Assumptions C23_beside_the_input_without_out_dir.

Theorem C23_single_file_goes_directly_into_out_dir : forall d dir f, has_ws f = false ->
  resolve {| in_dir := None; out_dir := Some d |} dir f = ROut (d ++ [sapp (stem f) ".rs"%string]).
Proof. exact resolve_single_file. Qed.
Print Assumptions C23_single_file_goes_directly_into_out_dir.

Theorem C23_out_dir_mirrors_in_dir_minus_leading_src : forall d i rel f, has_ws f = false ->
  resolve {| in_dir := Some i; out_dir := Some d |} (i ++ rel) f = ROut (d ++ strip_src rel ++ [sapp (stem f) ".rs"%string]).
Proof. exact resolve_mirrors_tree. Qed.
Print Assumptions C23_out_dir_mirrors_in_dir_minus_leading_src.

Theorem C23_whitespace_names_are_rejected : forall c dir f,
  has_ws f = true -> resolve c dir f <> RPanic -> resolve c dir f = RWhitespace.
Proof. exact resolve_whitespace. Qed.
Print Assumptions C23_whitespace_names_are_rejected.

Theorem C23_only_grammar_files_are_discovered : forall n dir d f,
  In (d, f) (walk dir n) -> is_grammar f = true.
Proof. exact walk_only_grammars. Qed.
Print Assumptions C23_only_grammar_files_are_discovered.

Theorem C23_one_output_per_processed_file : forall c files os,
  process c files = (os, true) -> List.length os = List.length files.
Proof. exact process_length. Qed.
Print Assumptions C23_one_output_per_processed_file.
