(** C01 — generated parsers accept exactly the language of the start symbol.
    Universal part: for ALL tables A and certificates C that pass the validator, all inputs.
    Per run, `valid A C = true` is kernel-checked for the tables lalrpop actually generated. *)
From Coq Require Import List.
From LV Require Import LR.Driver LR.Validator LR.Soundness LR.Completeness LR.Main.
Import ListNotations.

(* Ok is returned exactly on the yields of derivation trees of the start symbol *)
Theorem C01_accepts_exactly_the_language : forall A C,
  valid A C = true -> uses_recovery A = false ->
  forall w, Forall (tok_in_range A) w ->
  (sentence A w <-> exists fuel v s, drive A no_fail fuel (map IOk w) = (ROk v, s)).
Proof. exact parse_ok_iff. Qed.
Print Assumptions C01_accepts_exactly_the_language.

(* soundness, for any action oracle: an Ok result is a derivation tree of the input *)
Theorem C01_sound : forall A C, valid A C = true -> uses_recovery A = false ->
  forall orc fuel w v s, Forall (tok_in_range A) w ->
  drive A orc fuel (map IOk w) = (ROk v, s) ->
  wfp A v (Nt (start_nt A)) /\ yield v = w /\ acts (trace s) ++ [start_prod A] = postorder v.
Proof. exact parse_ok_sound. Qed.
Print Assumptions C01_sound.

(* completeness with an explicit "every large enough step budget" *)
Theorem C01_complete : forall A C, valid A C = true -> uses_recovery A = false ->
  forall t, wfp A t (Nt (start_nt A)) ->
  exists n, forall fuel, n <= fuel -> exists s, drive A no_fail fuel (map IOk (yield t)) = (ROk t, s).
Proof. intros A C Hv _. exact (parse_ok_complete A C Hv). Qed.
Print Assumptions C01_complete.

(* corollary: tables that validate exist only for unambiguous grammars *)
Theorem C01_unambiguous : forall A C, valid A C = true -> uses_recovery A = false ->
  forall t1 t2, wfp A t1 (Nt (start_nt A)) -> wfp A t2 (Nt (start_nt A)) ->
  yield t1 = yield t2 -> t1 = t2.
Proof. intros A C Hv _. exact (unambiguous A C Hv). Qed.
Print Assumptions C01_unambiguous.

(** the parser decides the language: for every input there is a budget beyond which the answer is its
    derivation tree if it is a sentence and an error if it is not -- never "out of budget", never a
    panic (uses the termination theorem of C08) *)
Theorem C01_parser_decides_the_language : forall A C, valid A C = true -> uses_recovery A = false ->
  forall w, Forall (tok_in_range A) w ->
  exists n, forall fuel, n <= fuel ->
    (exists t s, drive A no_fail fuel (map IOk w) = (ROk t, s) /\ wfp A t (Nt (start_nt A)) /\ yield t = w) \/
    (exists e s, drive A no_fail fuel (map IOk w) = (RErr e, s) /\ ~ sentence A w).
Proof. exact parser_decides. Qed.
Print Assumptions C01_parser_decides_the_language.
