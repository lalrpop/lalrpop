(** C07 — table-driven and recursive-ascent parsers give identical results.
    Both generated back ends are tied to ONE model (LR/Driver.v, expected lists erased) by the
    correspondence check on compiled parsers; what the model guarantees makes the common result
    unique: an Ok value is the unique derivation tree of the input, a syntax error is reported at
    the token reached (C04), stream/action errors are returned verbatim (C17). *)
From Coq Require Import List.
From LV Require Import LR.Driver LR.Validator LR.Soundness LR.Completeness LR.Main.

(* any two sound parsers agree on accepted inputs: the derivation tree of an input is unique *)
Theorem C07_ok_value_is_determined_by_the_input : forall A C, valid A C = true ->
  forall v1 v2, wfp A v1 (Nt (start_nt A)) -> wfp A v2 (Nt (start_nt A)) ->
  yield v1 = yield v2 -> v1 = v2.
Proof. intros A C Hv. exact (unambiguous A C Hv). Qed.
Print Assumptions C07_ok_value_is_determined_by_the_input.

(* the table-driven side returns exactly that tree, for every oracle that lets the run finish *)
Theorem C07_table_side_returns_it : forall A C, valid A C = true -> uses_recovery A = false ->
  forall orc fuel w v s, Forall (tok_in_range A) w ->
  drive A orc fuel (map IOk w) = (ROk v, s) -> wfp A v (Nt (start_nt A)) /\ yield v = w.
Proof.
  intros A C Hv Hn orc fuel w v s Hw H.
  destruct (parse_ok_sound A C Hv Hn orc fuel w v s Hw H) as (H1 & H2 & _). auto.
Qed.
Print Assumptions C07_table_side_returns_it.
