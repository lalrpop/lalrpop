(** C12 — precedence/assoc annotations yield the documented tiered grammar. *)
From Coq Require Import List.
From LV Require Import Norm.Prec Norm.PrecProps.

(* inheritance: an alternative without `precedence` takes the previous level and associativity, a new
   `precedence` resets the associativity to `all`, an own `assoc` always wins *)
Theorem C12_inheritance : forall ll la a r,
  resolve ll la (a :: r) =
  let lvl := match p_prec a with Some l => l | None => ll end in
  let asc := match p_assoc a with
             | Some x => x
             | None => match p_prec a with Some _ => AAll | None => la end
             end in
  (lvl, asc, p_syms a) :: resolve lvl asc r.
Proof. exact resolve_cons. Qed.
Print Assumptions C12_inheritance.

(* the tiers are the distinct effective levels in increasing order, whatever the numbering *)
Theorem C12_levels : forall ras,
  increasing (levels ras) /\ forall l, In l (levels ras) <-> exists x, In x ras /\ fst (fst x) = l.
Proof. intros ras. split; [apply levels_increasing|intros l; apply levels_in]. Qed.
Print Assumptions C12_levels.

(* the substitution passes (OneThen/Every, forward/backward) compute the documented tiered grammar:
   in an alternative of level l every recursive occurrence denotes the next tighter tier, except the
   first one for `left`, the last one for `right`, all of them for `all`, none for `none`; each tier
   also falls through to the next tighter one *)
Theorem C12_expansion_is_the_documented_tiers : forall alts r, expand alts = Ok r -> r = spec_expand alts.
Proof. intros alts r. exact (unless_ok _ _ _ _ (expand_unless alts)). Qed.
Print Assumptions C12_expansion_is_the_documented_tiers.

(* the expansion is total on what validate_precedence accepts *)
Theorem C12_expansion_defined_when_validated : forall alts, prevalid alts -> exists r, expand alts = Ok r.
Proof. exact prevalid_no_panic. Qed.
Print Assumptions C12_expansion_defined_when_validated.
