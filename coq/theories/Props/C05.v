(** C05 — expected-token lists.
    Proved here for ANY tables (no recovery): every expected list the parser reports has no
    duplicates and only names terminals below tn_names (= |__TERMINAL|), hence never the error
    pseudo-terminal whose column is tn_names; the list is in table order.
    Proved for validated, productive tables: every listed terminal is a viable continuation -- the
    consumed prefix followed by any token of that terminal is a prefix of some sentence (the accepts
    simulation mirrors real reductions that leave the consumed input unchanged and end in a state
    that shifts the terminal; a shift is justified by an item, which is completed to a sentence).
    Not proved (partial): completeness of the list for canonical LR(1); the check decides it per run
    with an independent Earley oracle. *)
From Coq Require Import List.
From LV Require Import LR.Driver LR.Validator LR.Machine LR.ErrorPos LR.Main LR.TerminationRec LR.ExpectedExact.
Import ListNotations.

Theorem C05_expected_nodup_no_error_terminal : forall A orc fuel w s,
  uses_recovery A = false ->
  (forall k exp, drive A orc fuel (map IOk w) = (RErr (PUnrecTok k exp), s) ->
     NoDup exp /\ forall x, In x exp -> x < tn_names A) /\
  (forall loc exp, drive A orc fuel (map IOk w) = (RErr (PUnrecEof loc exp), s) ->
     NoDup exp /\ forall x, In x exp -> x < tn_names A).
Proof.
  intros A orc fuel w s Hn. split; intros a exp H.
  - eapply proj2. eapply unrecognized_token_position; eauto.
  - eapply proj2. eapply unrecognized_eof_position; eauto.
Qed.
Print Assumptions C05_expected_nodup_no_error_terminal.

(* an expected list is exactly the filter of 0..tn_names-1 by the accepts simulation on the
   current state stack: this is what ties the list to the automaton *)
Theorem C05_expected_is_accepts_filter : forall A fuel l n i L,
  expected_go A fuel l i n = EList L ->
  forall x, In x L -> i <= x < i + n /\ accepts A fuel l (Some x) = ATrue.
Proof.
  intros A fuel l n i L H x Hx. destruct (expected_go_in A fuel l n i L x H Hx). auto.
Qed.
Print Assumptions C05_expected_is_accepts_filter.

(* the statement of C05: listed terminals are valid continuations of the consumed input *)
Theorem C05_expected_terminals_are_viable_continuations : forall A C, valid A C = true -> uses_recovery A = false ->
  productive A C = true ->
  forall orc fuel w s, Forall (tok_in_range A) w ->
  (forall k exp, drive A orc fuel (map IOk w) = (RErr (PUnrecTok k exp), s) ->
     exists u v, w = u ++ k :: v /\ npulled s = S (length u) /\
       forall x kx, In x exp -> tk_idx kx = Some x -> exists v', sentence A (u ++ [kx] ++ v')) /\
  (forall loc exp, drive A orc fuel (map IOk w) = (RErr (PUnrecEof loc exp), s) ->
     forall x kx, In x exp -> tk_idx kx = Some x -> exists v', sentence A (w ++ [kx] ++ v')).
Proof.
  intros A C Hv Hn Hp orc fuel w s Hw. split.
  - intros k exp H. destruct (consumed_prefix_is_viable A C Hv Hn orc fuel w k exp s Hp Hw H) as (u & v & H1 & H2 & _ & H3).
    exists u, v. repeat split; assumption.
  - intros loc exp H. exact (expected_at_eof_are_viable A C Hv Hn orc fuel w loc exp s Hp Hw H).
Qed.
Print Assumptions C05_expected_terminals_are_viable_continuations.

(** completeness, for the automaton: [Shiftable A (Some x) l] (LR/TerminationRec.v) says that from the
    state vector l the reductions triggered by the lookahead x end in a shift of x.  On validated
    tables the list reported with an UnrecognizedToken / UnrecognizedEof error is EXACTLY the set of
    terminals x for which this holds in the configuration where the error is reported: nothing the
    parser would accept next is missing, nothing else is listed.  (For a canonical LR(1) automaton that
    set is the set of valid continuations; for merged-state automata it is what the automaton can
    still accept after the reductions it has already made.) *)
Theorem C05_expected_list_is_exactly_what_the_parser_would_shift : forall A C,
  shape A C = true -> exact A C = true -> uses_recovery A = false ->
  forall orc fuel w r s exp,
  Forall (fun k => match tk_idx k with Some t => t < tn_names A | None => True end) w ->
  drive A orc fuel (map IOk w) = (r, s) -> is_unrec r exp ->
  forall x, x < tn_names A -> (In x exp <-> Shiftable A (Some x) (states_of (stk s))).
Proof. exact expected_list_is_exact. Qed.
Print Assumptions C05_expected_list_is_exactly_what_the_parser_would_shift.
