(** C15 — conditional compilation equals deleting the inactive declarations. *)
From Coq Require Import List Bool.
From LV Require Import Norm.Cfg Norm.CfgProps.

(* predicates evaluate like Rust's feature = "x" / not / all / any *)
Theorem C15_predicates_evaluate_like_rust : forall fs p, wfp p -> (test fs p = true <-> holds fs p).
Proof. exact test_spec. Qed.
Print Assumptions C15_predicates_evaluate_like_rust.

(* several cfg attributes on one item are conjoined *)
Theorem C15_attributes_are_conjoined : forall fs c1 c2,
  cfg_active fs (c1 ++ c2) = cfg_active fs c1 && cfg_active fs c2.
Proof. intros fs c1 c2. apply forallb_app. Qed.
Print Assumptions C15_attributes_are_conjoined.

(* the pass is exactly filtering: the nonterminals whose cfg holds, with the alternatives whose cfg holds *)
Theorem C15_removal_is_filtering : forall fs g,
  survivors fs g =
  map (fun n => (n_id n, map a_id (filter (fun a => cfg_active fs (a_cfg a)) (n_alts n))))
      (filter (fun n => cfg_active fs (n_cfg n)) g).
Proof. intros fs g. unfold survivors, remove_disabled. rewrite map_map. reflexivity. Qed.
Print Assumptions C15_removal_is_filtering.

Theorem C15_removal_idempotent : forall fs g, remove_disabled fs (remove_disabled fs g) = remove_disabled fs g.
Proof. exact remove_disabled_idempotent. Qed.
Print Assumptions C15_removal_idempotent.
