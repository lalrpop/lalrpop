(** C10 — literal and regex terminals match exactly their own language.
    Coq part: a literal pattern denotes exactly its own byte string; the executable matcher decides
    the denotation.  The pipeline escape -> parse -> Display -> {:?} -> rustc literal -> parse lives in
    regex-syntax/core::fmt/rustc: it is exercised by the check (emitted pattern vs the terminal the
    user wrote), not verified; partial. *)
From LV Require Import Lex.Regex.

Theorem C10_literal_matches_exactly_itself : forall bs w, matches (RLit bs) w <-> w = bs.
Proof. exact lit_exact. Qed.
Print Assumptions C10_literal_matches_exactly_itself.

Theorem C10_matcher_decides_the_language : forall r w, matchb r w = true <-> matches r w.
Proof. intros; apply matchb_spec. Qed.
Print Assumptions C10_matcher_decides_the_language.
