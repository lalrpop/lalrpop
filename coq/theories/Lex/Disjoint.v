(** A verified decision procedure (sound, fuelled) for "no string is matched by both r1 and r2 unless
    it is also matched by h": exploration of the derivative triples reachable from (r1, r2, h) over the
    byte alphabet, with similarity-normalising constructors so that the reachable set stays small.
    An answer [Some true] is a theorem about the denotational semantics [matches]; it replaces trust in
    an external search for the negative direction of the lexer-ambiguity property (C11). *)
From Coq Require Import List PeanoNat BinNat Nnat Bool.
From LV Require Import Lex.Regex.
Import ListNotations.

Fixpoint re_eqb (a b : re) : bool :=
  match a, b with
  | RNone, RNone => true
  | REps, REps => true
  | RRange l1 h1, RRange l2 h2 => N.eqb l1 l2 && N.eqb h1 h2
  | RCat a1 a2, RCat b1 b2 => re_eqb a1 b1 && re_eqb a2 b2
  | RAlt a1 a2, RAlt b1 b2 => re_eqb a1 b1 && re_eqb a2 b2
  | RStar a1, RStar b1 => re_eqb a1 b1
  | _, _ => false
  end.

Lemma re_eqb_eq : forall a b, re_eqb a b = true -> a = b.
Proof.
  induction a as [| |l1 h1|a1 IH1 a2 IH2|a1 IH1 a2 IH2|a1 IH1]; intros b H; destruct b; cbn [re_eqb] in H; try discriminate.
  - (* RNone *) reflexivity.
  - (* REps *) reflexivity.
  - (* RRange *) apply andb_true_iff in H as [H1 H2]. apply N.eqb_eq in H1, H2. subst. reflexivity.
  - (* RCat *) apply andb_true_iff in H as [H1 H2]. f_equal; auto.
  - (* RAlt *) apply andb_true_iff in H as [H1 H2]. f_equal; auto.
  - (* RStar *) f_equal; auto.
Qed.

(* a total preorder used only to make the order of alternatives canonical; nothing is proved about it *)
Fixpoint re_rank (r : re) : N :=
  match r with
  | RNone => 0 | REps => 1 | RRange l h => 2 + l * 256 + h
  | RCat a b => 3 + 7 * re_rank a + 11 * re_rank b
  | RAlt a b => 5 + 13 * re_rank a + 17 * re_rank b
  | RStar a => 4 + 19 * re_rank a
  end.
Fixpoint insert (x : re) (l : list re) : list re :=
  match l with
  | [] => [x]
  | y :: r => if N.leb (re_rank x) (re_rank y) then x :: l else y :: insert x r
  end.
Definition sort (l : list re) : list re := fold_right insert [] l.

Lemma insert_in x l y : In y (insert x l) <-> y = x \/ In y l.
Proof.
  induction l as [|z r IH]; cbn [insert]; [|destruct (N.leb _ _)]; cbn [In]; rewrite ?IH.
  (* the empty list; x put in front; x put further down *)
  all: split; intros H; decompose [or] H; subst; auto.
Qed.
Lemma sort_in l y : In y (sort l) <-> In y l.
Proof.
  induction l as [|x r IH]; cbn [sort fold_right]; [reflexivity|].
  fold (sort r). rewrite insert_in, IH. cbn [In]. intuition.
Qed.

Definition mem (x : re) (l : list re) : bool := existsb (re_eqb x) l.
Lemma mem_in x l : mem x l = true -> In x l.
Proof. unfold mem. intros H. apply existsb_exists in H as (y & Hy & He). apply re_eqb_eq in He. subst. exact Hy. Qed.
Fixpoint dedupe (l : list re) : list re :=
  match l with [] => [] | x :: r => if mem x r then dedupe r else x :: dedupe r end.
Lemma dedupe_in l y : In y (dedupe l) <-> In y l.
Proof.
  induction l as [|x r IH]; cbn [dedupe]; [reflexivity|].
  destruct (mem x r) eqn:E; cbn [In]; rewrite IH; [|reflexivity].
  split; [auto|]. intros [<-|H]; [apply mem_in; exact E|exact H].
Qed.

Fixpoint alts (r : re) : list re :=
  match r with RAlt a b => alts a ++ alts b | RNone => [] | _ => [r] end.
Fixpoint mk_alt (l : list re) : re :=
  match l with [] => RNone | [a] => a | a :: r => RAlt a (mk_alt r) end.

Lemma none_inv w : ~ matches RNone w.
Proof. exact (proj1 (matches_none w)). Qed.

Lemma alts_sem : forall r w, matches r w <-> exists x, In x (alts r) /\ matches x w.
Proof.
  induction r as [| |l h|a IHa b IHb|a IHa b IHb|a IHa]; intros w; cbn [alts]; rewrite <- Exists_exists.
  - (* RNone: no alternative *) rewrite Exists_nil. apply matches_none.
  - rewrite Exists_cons, Exists_nil. tauto.
  - rewrite Exists_cons, Exists_nil. tauto.
  - rewrite Exists_cons, Exists_nil. tauto.
  - (* RAlt: the alternatives of both sides *) rewrite Exists_app, !Exists_exists, <- IHa, <- IHb. apply matches_alt.
  - rewrite Exists_cons, Exists_nil. tauto.
Qed.

Lemma mk_alt_sem : forall l w, matches (mk_alt l) w <-> exists x, In x l /\ matches x w.
Proof.
  intros l w. rewrite <- Exists_exists. induction l as [|a [|b r] IH]; cbn [mk_alt].
  - rewrite Exists_nil. apply matches_none.
  - rewrite Exists_cons, Exists_nil. tauto.
  - rewrite matches_alt, IH, (Exists_cons _ a). reflexivity.
Qed.

Definition sAlt (a b : re) : re := mk_alt (sort (dedupe (alts a ++ alts b))).
Lemma sAlt_sem a b w : matches (sAlt a b) w <-> matches a w \/ matches b w.
Proof.
  unfold sAlt. rewrite mk_alt_sem. split.
  - intros (x & Hx & Hm). apply sort_in, dedupe_in, in_app_or in Hx as [Hx|Hx]; [left|right]; apply alts_sem; eauto.
  - intros [H|H]; apply alts_sem in H as (x & Hx & Hm); exists x; (split; [apply sort_in, dedupe_in, in_or_app; auto|exact Hm]).
Qed.

Definition sCat (a b : re) : re :=
  match a with
  | RNone => RNone
  | REps => b
  | _ => match b with RNone => RNone | REps => a | _ => RCat a b end
  end.
Lemma cat_none_l x w : matches (RCat RNone x) w <-> matches RNone w.
Proof. rewrite matches_cat, matches_none. split; [intros (u & v & _ & H%matches_none & _); exact H|intros []]. Qed.
Lemma cat_none_r x w : matches (RCat x RNone) w <-> matches RNone w.
Proof. rewrite matches_cat, matches_none. split; [intros (u & v & _ & _ & H%matches_none); exact H|intros []]. Qed.
Lemma cat_eps_l x w : matches (RCat REps x) w <-> matches x w.
Proof.
  rewrite matches_cat. split; [intros (u & v & -> & ->%matches_eps & Hv); exact Hv|].
  intros H. exists [], w. repeat split; [constructor|exact H].
Qed.
Lemma cat_eps_r x w : matches (RCat x REps) w <-> matches x w.
Proof.
  rewrite matches_cat. split; [intros (u & v & -> & Hu & ->%matches_eps); rewrite app_nil_r; exact Hu|].
  intros H. exists w, []. rewrite app_nil_r. repeat split; [exact H|constructor].
Qed.

Lemma sCat_sem a b w : matches (sCat a b) w <-> matches (RCat a b) w.
Proof.
  unfold sCat. destruct a; [symmetry; apply cat_none_l|symmetry; apply cat_eps_l|..].
  (* [a] is neither [RNone] nor [REps]: the inner match on [b] *)
  all: destruct b; [symmetry; apply cat_none_r|symmetry; apply cat_eps_r|reflexivity..].
Qed.

Lemma cat_congr_l x x' b w : (forall u, matches x u <-> matches x' u) -> matches (RCat x b) w <-> matches (RCat x' b) w.
Proof. intros H. rewrite (matches_cat_l _ _ _ _ H). symmetry. apply matches_cat. Qed.

Fixpoint sderiv (c : N) (r : re) : re :=
  match r with
  | RNone => RNone
  | REps => RNone
  | RRange lo hi => if (lo <=? c)%N && (c <=? hi)%N then REps else RNone
  | RCat a b => if nullable a then sAlt (sCat (sderiv c a) b) (sderiv c b) else sCat (sderiv c a) b
  | RAlt a b => sAlt (sderiv c a) (sderiv c b)
  | RStar a => sCat (sderiv c a) (RStar a)
  end.

Lemma sderiv_deriv c : forall r w, matches (sderiv c r) w <-> matches (deriv c r) w.
Proof.
  induction r as [| |l h|a IHa b IHb|a IHa b IHb|a IHa]; intros w; cbn [sderiv deriv]; try reflexivity.
  - (* RCat *) destruct (nullable a).
    + rewrite sAlt_sem, matches_alt, sCat_sem, IHb, (cat_congr_l _ _ _ _ IHa). reflexivity.
    + rewrite sCat_sem, (cat_congr_l _ _ _ _ IHa). reflexivity.
  - rewrite sAlt_sem, matches_alt, IHa, IHb. reflexivity.
  - (* RStar *) rewrite sCat_sem. apply cat_congr_l, IHa.
Qed.

Lemma sderiv_spec c r w : matches (sderiv c r) w <-> matches r (c :: w).
Proof. rewrite sderiv_deriv. apply deriv_spec. Qed.

(* a state is a triple (r1, r2, h) of derivatives by the same string; [bad]: both sides accept it and h does
   not; [dead]: one side is [RNone], so nothing below can be bad *)
Definition st := (re * re * re)%type.
Definition st_eqb (x y : st) : bool :=
  let '(a, b, h) := x in let '(a', b', h') := y in re_eqb a a' && re_eqb b b' && re_eqb h h'.
Lemma st_eqb_eq x y : st_eqb x y = true -> x = y.
Proof.
  destruct x as [[a b] h], y as [[a' b'] h']. cbn [st_eqb]. intros H.
  apply andb_true_iff in H as [H H3]. apply andb_true_iff in H as [H1 H2].
  apply re_eqb_eq in H1, H2, H3. subst. reflexivity.
Qed.
Definition memst (x : st) (l : list st) : bool := existsb (st_eqb x) l.
Lemma memst_in x l : memst x l = true -> In x l.
Proof. unfold memst. intros H. apply existsb_exists in H as (y & Hy & He). apply st_eqb_eq in He. subst. exact Hy. Qed.

Definition bytes : list N := map N.of_nat (seq 0 256).
Lemma bytes_in c : (c < 256)%N -> In c bytes.
Proof.
  intros H. unfold bytes. apply in_map_iff. exists (N.to_nat c). split; [apply N2Nat.id|].
  apply in_seq. split; [apply Nat.le_0_l|]. change (0 + 256) with (N.to_nat 256).
  apply Nat.compare_lt_iff. rewrite <- N2Nat.inj_compare. exact H.
Qed.

Definition is_none (r : re) : bool := match r with RNone => true | _ => false end.
Definition dead (s : st) : bool := let '(a, b, _) := s in is_none a || is_none b.
Definition bad (s : st) : bool := let '(a, b, h) := s in nullable a && nullable b && negb (nullable h).
Definition succ (c : N) (s : st) : st := let '(a, b, h) := s in (sderiv c a, sderiv c b, sderiv c h).

Fixpoint add_new (cands seen acc : list st) : list st :=
  match cands with
  | [] => acc
  | x :: r => if dead x || memst x seen || memst x acc then add_new r seen acc else add_new r seen (x :: acc)
  end.

Lemma add_new_acc : forall cands seen acc x, In x acc -> In x (add_new cands seen acc).
Proof.
  induction cands as [|y r IH]; intros seen acc x H; cbn [add_new]; [exact H|].
  destruct (dead y || memst y seen || memst y acc); apply IH; [exact H|right; exact H].
Qed.
Lemma add_new_covers : forall cands seen acc x, In x cands -> dead x = true \/ In x seen \/ In x (add_new cands seen acc).
Proof.
  induction cands as [|y r IH]; intros seen acc x H; [destruct H|].
  cbn [add_new]. destruct H as [<-|H].
  - destruct (dead y) eqn:Ed; [auto|]. destruct (memst y seen) eqn:Es; [right; left; apply memst_in; exact Es|].
    destruct (memst y acc) eqn:Ea; cbn [orb].
    + right. right. apply add_new_acc. apply memst_in. exact Ea.
    + right. right. apply add_new_acc. left. reflexivity.
  - destruct (dead y || memst y seen || memst y acc); apply IH; exact H.
Qed.

Fixpoint explore (fuel : nat) (todo seen : list st) : option bool :=
  match fuel with
  | O => None
  | S f =>
    match todo with
    | [] => Some true
    | s :: rest =>
      if bad s then Some false
      else let new := add_new (map (fun c => succ c s) bytes) seen [] in
           explore f (rest ++ new) (new ++ seen)
    end
  end.

Definition done (seen : list st) (s : st) : Prop :=
  bad s = false /\ forall c, In c bytes -> dead (succ c s) = true \/ In (succ c s) seen.
Definition Closed (seen : list st) : Prop := forall s, In s seen -> done seen s.

Lemma done_mono seen seen' s : (forall x, In x seen -> In x seen') -> done seen s -> done seen' s.
Proof. intros Hsub [Hb Hs]. split; [exact Hb|]. intros c Hc. destruct (Hs c Hc); auto. Qed.

Lemma explore_closed : forall fuel todo seen,
  (forall s, In s todo -> In s seen) ->
  (forall s, In s seen -> In s todo \/ done seen s) ->
  explore fuel todo seen = Some true -> exists seen', (forall x, In x seen -> In x seen') /\ Closed seen'.
Proof.
  induction fuel as [|f IH]; intros todo seen Hsub Hinv H; cbn [explore] in H; [discriminate|].
  destruct todo as [|s rest].
  - exists seen. split; [auto|]. intros x Hx. destruct (Hinv x Hx) as [[]|Hd]. exact Hd.
  - destruct (bad s) eqn:Eb; [discriminate|].
    set (new := add_new (map (fun c => succ c s) bytes) seen []) in *.
    destruct (IH (rest ++ new) (new ++ seen)) as (seen' & Hs' & Hc'); [| |exact H|].
    + (* the new todo list is in the new seen list *)
      intros x Hx. apply in_app_or in Hx as [Hx|Hx]; apply in_or_app; [right; apply Hsub; right; exact Hx|left; exact Hx].
    + (* every seen state is still to do, or done *)
      intros x Hx. apply in_app_or in Hx as [Hx|Hx]; [left; apply in_or_app; right; exact Hx|].
      destruct (Hinv x Hx) as [[<-|Hr]|Hd].
      * (* the state just treated is done *) right. split; [exact Eb|]. intros c Hc.
        destruct (add_new_covers (map (fun c => succ c s) bytes) seen [] (succ c s)) as [Hd|[Hd|Hd]]; [apply in_map_iff; eauto| | |].
        -- (* dead *) left. exact Hd.
        -- (* seen before *) right. apply in_or_app. right. exact Hd.
        -- (* new *) right. apply in_or_app. left. exact Hd.
      * (* still to do *) left. apply in_or_app. left. exact Hr.
      * (* done before *) right. apply (done_mono seen); [intros y Hy; apply in_or_app; right; exact Hy|exact Hd].
    + exists seen'. split; [|exact Hc']. intros x Hx. apply Hs'. apply in_or_app. right. exact Hx.
Qed.

Lemma closed_sound seen : Closed seen -> forall w a b h, In (a, b, h) seen ->
  Forall (fun c => (c < 256)%N) w -> matches a w -> matches b w -> matches h w.
Proof.
  intros Hc. induction w as [|c t IH]; intros a b h Hin Hw Ha Hb.
  - destruct (Hc _ Hin) as [Hbad _]. cbn [bad] in Hbad.
    apply nullable_spec in Ha, Hb. rewrite Ha, Hb in Hbad. cbn [andb] in Hbad.
    apply negb_false_iff in Hbad. apply nullable_spec. exact Hbad.
  - inversion Hw as [|? ? Hc256 Ht]; subst.
    destruct (Hc _ Hin) as [_ Hs]. specialize (Hs c (bytes_in c Hc256)). cbn [succ] in Hs.
    apply sderiv_spec in Ha, Hb. apply sderiv_spec.
    destruct Hs as [Hd|Hs].
    + cbn [dead] in Hd. apply orb_true_iff in Hd as [Hd|Hd].
      * destruct (sderiv c a); try discriminate. destruct (none_inv _ Ha).
      * destruct (sderiv c b); try discriminate. destruct (none_inv _ Hb).
    + exact (IH _ _ _ Hs Ht Ha Hb).
Qed.

Definition disjoint_check (fuel : nat) (r1 r2 h : re) : option bool := explore fuel [(r1, r2, h)] [(r1, r2, h)].

(** [Some true]: every byte string matched by r1 and by r2 is matched by h; with h = RNone: r1 and r2
    have no byte string in common *)
Theorem disjoint_check_sound fuel r1 r2 h : disjoint_check fuel r1 r2 h = Some true ->
  forall w, Forall (fun c => (c < 256)%N) w -> matches r1 w -> matches r2 w -> matches h w.
Proof.
  intros H. unfold disjoint_check in H.
  destruct (explore_closed fuel [(r1, r2, h)] [(r1, r2, h)] (fun s Hs => Hs) (fun s Hs => or_introl Hs) H) as (seen' & Hs & Hc).
  intros w Hw H1 H2. apply (closed_sound seen' Hc w r1 r2 h); auto. apply Hs. left. reflexivity.
Qed.

Corollary no_common_string fuel r1 r2 : disjoint_check fuel r1 r2 RNone = Some true ->
  forall w, Forall (fun c => (c < 256)%N) w -> ~ (matches r1 w /\ matches r2 w).
Proof.
  intros H w Hw [H1 H2]. exact (none_inv _ (disjoint_check_sound fuel r1 r2 RNone H w Hw H1 H2)).
Qed.

(* the other answer is meaningful too: [Some false] only after a triple reachable by some string w was
   found with both sides nullable -- this direction is re-checked on a concrete witness by the caller *)

(* Evaluating [bytes] converts 0..255 from unary, and that conversion is nearly all of what checking an
   evaluation of [explore] costs.  [explore_on] is [explore] over a given alphabet; the evaluations below
   run it over the same 256 bytes counted up in binary. *)
Fixpoint upto (n : nat) (c : N) : list N := match n with O => [] | S k => c :: upto k (N.succ c) end.
Lemma map_of_nat_seq n : forall a, map N.of_nat (seq a n) = upto n (N.of_nat a).
Proof.
  induction n as [|n IH]; intros a; cbn [seq map upto]; [reflexivity|].
  rewrite IH, Nat2N.inj_succ. reflexivity.
Qed.

Fixpoint explore_on (bs : list N) (fuel : nat) (todo seen : list st) : option bool :=
  match fuel with
  | O => None
  | S f =>
    match todo with
    | [] => Some true
    | s :: rest =>
      if bad s then Some false
      else let new := add_new (map (fun c => succ c s) bs) seen [] in
           explore_on bs f (rest ++ new) (new ++ seen)
    end
  end.
Lemma explore_on_bytes : forall fuel todo seen, explore fuel todo seen = explore_on bytes fuel todo seen.
Proof.
  induction fuel as [|f IH]; intros [|s rest] seen; cbn [explore explore_on]; try reflexivity.
  destruct (bad s); [reflexivity|apply IH].
Qed.
Lemma disjoint_check_upto fuel r1 r2 h :
  disjoint_check fuel r1 r2 h = explore_on (upto 256 0) fuel [(r1, r2, h)] [(r1, r2, h)].
Proof. unfold disjoint_check. rewrite explore_on_bytes. unfold bytes. rewrite map_of_nat_seq. reflexivity. Qed.

(** non-vacuity: a disjoint pair, an overlapping pair, an overlap that h covers only in part *)
Example ident_vs_digits :
  disjoint_check 50 (RPlus (RRange 97 122)) (RPlus (RRange 48 57)) RNone = Some true.
Proof. rewrite disjoint_check_upto. vm_compute. reflexivity. Qed.
Example ident_vs_keyword_overlap :
  disjoint_check 50 (RPlus (RRange 97 122)) (RLit [105; 102]%N) RNone = Some false.
Proof. rewrite disjoint_check_upto. vm_compute. reflexivity. Qed.
Example overlap_shadowed :
  disjoint_check 50 (RPlus (RRange 97 122)) (RCat (RRange 105 105) (RRange 97 122)) (RLit [105; 102]%N) = Some false.
Proof. rewrite disjoint_check_upto. vm_compute. reflexivity. Qed.
