(** C10, C11: regular expressions over bytes with Brzozowski derivatives: the semantics the built-in lexer's
    patterns are given in the lexer model.  [matches] is the denotational semantics, [matchb] the
    executable one; [matchb_spec] relates them. *)
From Coq Require Import List BinNat Bool.
Import ListNotations.

Inductive re :=
| RNone                      (* matches nothing *)
| REps                       (* the empty string *)
| RRange (lo hi : N)         (* one byte in [lo, hi] *)
| RCat (a b : re)
| RAlt (a b : re)
| RStar (a : re).

Inductive matches : re -> list N -> Prop :=
| m_eps : matches REps []
| m_range lo hi b : (lo <= b)%N -> (b <= hi)%N -> matches (RRange lo hi) [b]
| m_cat a b u v : matches a u -> matches b v -> matches (RCat a b) (u ++ v)
| m_alt_l a b u : matches a u -> matches (RAlt a b) u
| m_alt_r a b u : matches b u -> matches (RAlt a b) u
| m_star_nil a : matches (RStar a) []
| m_star_cons a u v : matches a u -> matches (RStar a) v -> matches (RStar a) (u ++ v).

Fixpoint nullable (r : re) : bool :=
  match r with
  | RNone => false
  | REps => true
  | RRange _ _ => false
  | RCat a b => nullable a && nullable b
  | RAlt a b => nullable a || nullable b
  | RStar _ => true
  end.

Fixpoint deriv (c : N) (r : re) : re :=
  match r with
  | RNone => RNone
  | REps => RNone
  | RRange lo hi => if (lo <=? c)%N && (c <=? hi)%N then REps else RNone
  | RCat a b => if nullable a then RAlt (RCat (deriv c a) b) (deriv c b) else RCat (deriv c a) b
  | RAlt a b => RAlt (deriv c a) (deriv c b)
  | RStar a => RCat (deriv c a) (RStar a)
  end.

Fixpoint matchb (r : re) (w : list N) : bool :=
  match w with
  | [] => nullable r
  | c :: t => matchb (deriv c r) t
  end.

Lemma matches_none w : matches RNone w <-> False.
Proof. split; [intros H; inversion H|intros []]. Qed.
Lemma matches_eps w : matches REps w <-> w = [].
Proof. split; [intros H; inversion H; reflexivity|intros ->; constructor]. Qed.
Lemma matches_range lo hi w : matches (RRange lo hi) w <-> exists b, w = [b] /\ (lo <= b)%N /\ (b <= hi)%N.
Proof. split; [intros H; inversion H; eauto|intros (b & -> & H1 & H2); constructor; assumption]. Qed.
Lemma matches_range_cons lo hi c w :
  matches (RRange lo hi) (c :: w) <-> w = [] /\ (lo <=? c)%N && (c <=? hi)%N = true.
Proof.
  rewrite matches_range, andb_true_iff, !N.leb_le.
  split; [intros (b & [= <- <-] & H); auto|intros [-> H]; eauto].
Qed.
Lemma matches_cat a b w : matches (RCat a b) w <-> exists u v, w = u ++ v /\ matches a u /\ matches b v.
Proof. split; [intros H; inversion H; eauto|intros (u & v & -> & Hu & Hv); constructor; assumption]. Qed.
Lemma matches_alt a b w : matches (RAlt a b) w <-> matches a w \/ matches b w.
Proof. split; [intros H; inversion H; auto|intros [H|H]; [apply m_alt_l|apply m_alt_r]; exact H]. Qed.

Lemma nullable_spec r : nullable r = true <-> matches r [].
Proof.
  induction r as [| |lo hi|a IHa b IHb|a IHa b IHb|a IHa]; simpl.
  - rewrite matches_none. split; [discriminate|intros []].
  - rewrite matches_eps. split; reflexivity.
  - rewrite matches_range. split; [discriminate|intros (b & H & _); discriminate].
  - rewrite andb_true_iff, IHa, IHb, matches_cat. split.
    + intros [Ha Hb]. exists [], []. auto.
    + intros (u & v & H & Ha & Hb). symmetry in H. apply app_eq_nil in H as [-> ->]. auto.
  - rewrite orb_true_iff, IHa, IHb, matches_alt. reflexivity.
  - (* RStar *) split; [constructor|reflexivity].
Qed.

Lemma matches_cat_cons a b c w : matches (RCat a b) (c :: w) <->
  (exists u v, w = u ++ v /\ matches a (c :: u) /\ matches b v) \/ (matches a [] /\ matches b (c :: w)).
Proof.
  rewrite matches_cat. split.
  - intros ([|c' u] & v & E & Hu & Hv); simpl in E; [subst v; auto|].
    injection E as <- ->. left. eauto.
  - intros [(u & v & -> & Hu & Hv)|[Hu Hv]]; [exists (c :: u), v|exists [], (c :: w)]; auto.
Qed.

Lemma matches_star_cons a c w : matches (RStar a) (c :: w) <->
  exists u v, w = u ++ v /\ matches a (c :: u) /\ matches (RStar a) v.
Proof.
  split.
  - intros H. remember (RStar a) as r eqn:Hr. remember (c :: w) as cw eqn:Hw.
    induction H as [| | | | | |a' u v Hu _ Hv IHv]; try discriminate.
    destruct u as [|c' u']; [exact (IHv Hr Hw)|].
    injection Hr as ->. injection Hw as -> <-. eauto.
  - intros (u & v & -> & Hu & Hv). exact (m_star_cons a (c :: u) v Hu Hv).
Qed.

(* [RCat x b] where the language of [x] is known as a predicate *)
Lemma matches_cat_l (P : list N -> Prop) x b w : (forall u, matches x u <-> P u) ->
  matches (RCat x b) w <-> exists u v, w = u ++ v /\ P u /\ matches b v.
Proof.
  intros H. rewrite matches_cat.
  split; intros (u & v & E & Hu & Hv); exists u, v; (split; [exact E|split; [apply H; exact Hu|exact Hv]]).
Qed.

Lemma deriv_spec : forall r c w, matches (deriv c r) w <-> matches r (c :: w).
Proof.
  induction r as [| |lo hi|a IHa b IHb|a IHa b IHb|a IHa]; intros c w; simpl.
  - rewrite !matches_none. reflexivity.
  - rewrite matches_none, matches_eps. split; [intros []|discriminate].
  - rewrite matches_range_cons. destruct ((lo <=? c)%N && (c <=? hi)%N);
      [rewrite matches_eps|rewrite matches_none]; intuition discriminate.
  - rewrite matches_cat_cons, <- nullable_spec, <- IHb, <- (matches_cat_l _ _ b w (IHa c)).
    destruct (nullable a); [rewrite matches_alt|]; intuition discriminate.
  - rewrite !matches_alt, IHa, IHb. reflexivity.
  - rewrite matches_star_cons. apply matches_cat_l, IHa.
Qed.

Theorem matchb_spec : forall w r, matchb r w = true <-> matches r w.
Proof.
  induction w as [|c t IH]; intros r; simpl.
  - apply nullable_spec.
  - rewrite IH. apply deriv_spec.
Qed.

(* forms that tools/rx.py (to_coq) emits; of these only [RPlus] and [RLit] occur in theorems *)
Definition RPlus (a : re) : re := RCat a (RStar a).
Definition ROpt (a : re) : re := RAlt REps a.
Fixpoint RSeq (l : list re) : re := match l with [] => REps | [a] => a | a :: r => RCat a (RSeq r) end.
Fixpoint RAny (l : list re) : re := match l with [] => RNone | [a] => a | a :: r => RAlt a (RAny r) end.
Fixpoint RLit (bs : list N) : re := match bs with [] => REps | [b] => RRange b b | b :: r => RCat (RRange b b) (RLit r) end.
Fixpoint RRep (n : nat) (a : re) : re := match n with O => REps | S n' => RCat a (RRep n' a) end.

Lemma range_single b w : matches (RRange b b) w <-> w = [b].
Proof.
  rewrite matches_range. split; [intros (c & -> & H1 & H2); f_equal; apply N.le_antisymm; assumption|].
  intros ->. exists b. split; [reflexivity|split; apply N.le_refl].
Qed.

Lemma lit_exact : forall bs w, matches (RLit bs) w <-> w = bs.
Proof.
  induction bs as [|b [|b' r] IH]; intros w; cbn [RLit].
  - apply matches_eps.
  - apply range_single.
  - rewrite matches_cat. split; [intros (u & v & -> & ->%range_single & ->%IH); reflexivity|].
    intros ->. exists [b], (b' :: r). rewrite range_single, IH. auto.
Qed.
