(** C09: precedence of built-in lexer terminals (normalize/token_check MatchBlock + the sort in
    `construct` + the implicit whitespace skip of lexer/intern_token): a function from the position of
    an entry in the `match` block to its precedence, and what the order of the generated pattern table
    means for the runtime's "largest index wins" rule. *)
From Coq Require Import List Arith Bool Lia.
From LV Require Import Lex.Regex Lex.LexProps.
Import ListNotations.

(* an entry: the rung (0 = first `match` block) it belongs to -- for literals collected through `_`
   the rung of `_`; with no match block everything is in rung 0 of 0 rungs -- and whether it is a
   quoted literal *)
Record entry := { e_rung : nat; e_lit : bool }.

(* MatchBlock::new: precedence = (n_rungs - idx) * 2 + base_precedence *)
Definition prec (n_rungs : nat) (e : entry) : nat := (n_rungs - e_rung e) * 2 + (if e_lit e then 1 else 0).

Lemma earlier_rung_wins n e1 e2 : e_rung e1 < e_rung e2 -> e_rung e2 <= n -> prec n e2 < prec n e1.
Proof.
  unfold prec. intros H1 H2.
  assert (Hb : (if e_lit e2 then 1 else 0) <= 1) by (destruct (e_lit e2); auto).
  lia.
Qed.

Lemma literal_beats_regex n e1 e2 : e_rung e1 = e_rung e2 -> e_lit e1 = true -> e_lit e2 = false ->
  prec n e2 < prec n e1.
Proof. unfold prec. intros -> -> ->. lia. Qed.

(* the generated table lists the entries by non-decreasing precedence *)
Fixpoint sorted_by_prec (n : nat) (l : list entry) : bool :=
  match l with
  | [] => true
  | a :: r => match r with
              | [] => true
              | b :: _ => (prec n a <=? prec n b) && sorted_by_prec n r
              end
  end.

Lemma sorted_nth n : forall l i j, sorted_by_prec n l = true -> i <= j -> j < length l ->
  prec n (nth i l {| e_rung := 0; e_lit := false |}) <= prec n (nth j l {| e_rung := 0; e_lit := false |}).
Proof.
  induction l as [|a r IH]; intros i j Hs Hij Hj; [simpl in Hj; lia|].
  simpl in Hs. destruct r as [|b r'].
  - simpl in Hj. assert (j = 0) by lia. assert (i = 0) by lia. subst. lia.
  - apply andb_true_iff in Hs as [Hab Hs]. apply Nat.leb_le in Hab.
    destruct i as [|i], j as [|j].
    + lia.
    + transitivity (prec n b); [exact Hab|].
      apply (IH 0 j Hs); simpl in *; lia.
    + lia.
    + apply (IH i j Hs); simpl in *; lia.
Qed.

(* consequence for the runtime: in a table sorted by precedence, a pattern with strictly higher
   precedence than another has the larger index, so among the patterns matching the longest prefix the
   winner (largest index) has the highest precedence *)
Theorem higher_precedence_larger_index n l i j :
  sorted_by_prec n l = true -> i < length l -> j < length l ->
  prec n (nth i l {| e_rung := 0; e_lit := false |}) < prec n (nth j l {| e_rung := 0; e_lit := false |}) ->
  i < j.
Proof.
  intros Hs Hi Hj Hp. destruct (Nat.lt_ge_cases i j) as [|Hge]; [assumption|].
  pose proof (sorted_nth n l j i Hs Hge Hi). lia.
Qed.

Theorem winner_has_highest_precedence n (ents : list entry) pats text len idx j :
  length ents = length pats -> sorted_by_prec n ents = true ->
  pick pats text = Some (len, idx) -> j < length pats ->
  matches (pat pats j) (firstn len text) ->
  prec n (nth j ents {| e_rung := 0; e_lit := false |}) <= prec n (nth idx ents {| e_rung := 0; e_lit := false |}).
Proof.
  intros Hl Hs Hp Hj Hm. destruct (pick_longest_max _ _ _ _ Hp) as (_ & Hidx & _ & _ & Hmax).
  destruct (Nat.le_gt_cases j idx) as [Hle|Hgt].
  - apply sorted_nth; auto. lia.
  - exfalso. eapply Hmax; eauto.
Qed.
