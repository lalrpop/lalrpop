(** C09, C08: longest match with maximal index: what [scan] (the DFA walk of Matcher::next) computes; then what
    [lex_next] returns, progress, and termination of the token stream. *)
From Coq Require Import List BinNat Arith Lia.
From LV Require Import Lex.Regex Lex.LexModel.
Import ListNotations.

Definition derivs (rs : list re) (w : list N) : list re := fold_left (fun rs b => map (deriv b) rs) w rs.

Lemma derivs_cons rs b w : derivs rs (b :: w) = derivs (map (deriv b) rs) w.
Proof. reflexivity. Qed.
Lemma derivs_app rs u v : derivs rs (u ++ v) = derivs (derivs rs u) v.
Proof. unfold derivs. apply fold_left_app. Qed.
Lemma derivs_length rs w : length (derivs rs w) = length rs.
Proof. revert rs; induction w as [|b w IH]; intros rs; simpl; [reflexivity|]. rewrite IH. apply map_length. Qed.

Lemma nth_derivs : forall w rs j, nullable (nth j (derivs rs w) RNone) = matchb (nth j rs RNone) w.
Proof.
  induction w as [|b w IH]; intros rs j; simpl; [reflexivity|].
  rewrite IH. f_equal. exact (map_nth (deriv b) rs RNone j).
Qed.

(* an index past the end of the table denotes [RNone], which matches nothing *)
Lemma nth_matches_lt rs j w : matches (nth j rs RNone) w -> j < length rs.
Proof.
  intros H. destruct (Nat.lt_ge_cases j (length rs)) as [Hlt|Hge]; [exact Hlt|].
  rewrite (nth_overflow _ _ Hge) in H. destruct (proj1 (matches_none w) H).
Qed.

Lemma max_nullable_spec : forall rs i,
  match max_nullable rs i with
  | Some j => exists k, j = i + k /\ nullable (nth k rs RNone) = true /\
              forall k', k < k' -> nullable (nth k' rs RNone) = false
  | None => forall k, nullable (nth k rs RNone) = false
  end.
Proof.
  induction rs as [|r t IH]; intros i; simpl.
  - intros [|k]; reflexivity.
  - specialize (IH (S i)). destruct (max_nullable t (S i)) as [j|].
    + destruct IH as (k & -> & Hk & Hmax). exists (S k). repeat split; [lia|exact Hk|].
      intros [|k'] Hlt; [lia|]. apply Hmax. lia.
    + destruct (nullable r) eqn:Hr.
      * exists 0. repeat split; [lia|exact Hr|]. intros [|k'] Hlt; [lia|apply IH].
      * intros [|k]; [exact Hr|apply IH].
Qed.

(* the winner after consuming [w]: the largest pattern index matching exactly [w] *)
Definition winner (rs : list re) (w : list N) : option nat := max_nullable (derivs rs w) 0.

Lemma winner_spec rs w :
  match winner rs w with
  | Some j => matches (nth j rs RNone) w /\ forall k, j < k -> ~ matches (nth k rs RNone) w
  | None => forall k, ~ matches (nth k rs RNone) w
  end.
Proof.
  unfold winner. pose proof (max_nullable_spec (derivs rs w) 0) as S.
  assert (Hn : forall k, nullable (nth k (derivs rs w) RNone) = false -> ~ matches (nth k rs RNone) w).
  { intros k Hk Hm. apply matchb_spec in Hm. rewrite <- nth_derivs in Hm. congruence. }
  destruct (max_nullable (derivs rs w) 0) as [j|]; [|intros k; apply Hn, S].
  destruct S as (k & -> & Hk & Hmax). rewrite nth_derivs in Hk.
  split; [apply matchb_spec, Hk|]. intros k' Hlt. apply Hn, Hmax, Hlt.
Qed.

Lemma scan_acc : forall text rs pos best,
  scan rs text pos best = match scan rs text 0 None with Some (l, j) => Some (pos + l, j) | None => best end.
Proof.
  induction text as [|b t IH]; intros rs pos best; simpl.
  - destruct (max_nullable rs 0); [rewrite Nat.add_0_r|]; reflexivity.
  - rewrite (IH _ 1), (IH _ (S pos)). destruct (scan (map (deriv b) rs) t 0 None) as [[l j]|].
    + rewrite Nat.add_succ_r. reflexivity.
    + destruct (max_nullable rs 0); [rewrite Nat.add_0_r|]; reflexivity.
Qed.

Lemma scan_longest : forall text rs,
  match scan rs text 0 None with
  | Some (l, j) => l <= length text /\ winner rs (firstn l text) = Some j /\
                   forall L, l < L -> L <= length text -> winner rs (firstn L text) = None
  | None => forall L, L <= length text -> winner rs (firstn L text) = None
  end.
Proof.
  induction text as [|b t IH]; intros rs.
  - simpl. destruct (max_nullable rs 0) eqn:Hm.
    + repeat split; [lia|exact Hm|lia].
    + intros L _. rewrite firstn_nil. exact Hm.
  - cbn [scan]. rewrite scan_acc. specialize (IH (map (deriv b) rs)).
    destruct (scan (map (deriv b) rs) t 0 None) as [[l j]|].
    + destruct IH as (Hl & Hw & Hmax). simpl. repeat split; [lia|exact Hw|].
      intros [|L] H1 H2; [lia|apply Hmax; lia].
    + destruct (max_nullable rs 0) eqn:Hm.
      * repeat split; [simpl; lia|exact Hm|]. intros [|L] H1 H2; [lia|apply IH; simpl in H2; lia].
      * intros [|L] HL; [exact Hm|apply IH; simpl in HL; lia].
Qed.

Definition pick (pats : list (re * bool)) (text : list N) : option (nat * nat) :=
  scan (map fst pats) text 0 None.
Definition pat (pats : list (re * bool)) (j : nat) : re := nth j (map fst pats) RNone.

Theorem pick_longest_max pats text len idx :
  pick pats text = Some (len, idx) ->
  len <= length text /\ idx < length pats /\
  matches (pat pats idx) (firstn len text) /\
  (* longest: no pattern matches a longer prefix *)
  (forall j L, j < length pats -> len < L -> L <= length text -> ~ matches (pat pats j) (firstn L text)) /\
  (* among the patterns matching exactly this prefix, the largest index wins *)
  (forall j, idx < j -> j < length pats -> ~ matches (pat pats j) (firstn len text)).
Proof.
  unfold pick, pat. intros H. pose proof (scan_longest text (map fst pats)) as S. rewrite H in S.
  destruct S as (Hl & Hw & Hmax). pose proof (winner_spec (map fst pats) (firstn len text)) as W.
  rewrite Hw in W. destruct W as [Hm Hk]. repeat split; [exact Hl| |exact Hm| |].
  - rewrite <- (map_length fst). exact (nth_matches_lt _ _ _ Hm).
  - (* the bound on j is not needed: past the end the pattern is [RNone] *)
    intros j L _ H1 H2. pose proof (winner_spec (map fst pats) (firstn L text)) as W.
    rewrite (Hmax L H1 H2) in W. apply W.
  - intros j H1 _. apply Hk, H1.
Qed.

Theorem pick_none pats text :
  pick pats text = None ->
  forall j L, j < length pats -> L <= length text -> ~ matches (pat pats j) (firstn L text).
Proof.
  unfold pick, pat. intros H j L _ HL. pose proof (scan_longest text (map fst pats)) as S. rewrite H in S.
  pose proof (winner_spec (map fst pats) (firstn L text)) as W. rewrite (S L HL) in W. apply W.
Qed.

(** [lex_next]: a token is the pick at the position reached after skipping; offsets are byte offsets *)
Inductive skips (pats : list (re * bool)) : list N -> nat -> list N -> nat -> Prop :=
| sk_nil text c : skips pats text c text c
| sk_cons text c len idx text' c' :
    text <> [] -> pick pats text = Some (len, idx) -> snd (nth idx pats (RNone, false)) = true -> 0 < len ->
    skips pats (skipn len text) (c + len) text' c' -> skips pats text c text' c'.

Lemma lex_next_nonempty pats fuel text consumed : text <> [] ->
  lex_next pats (S fuel) text consumed =
  match pick pats text with
  | None => (LInvalid consumed, text, consumed)
  | Some (len, idx) =>
    if Nat.eqb len 0 then (LInvalid consumed, skipn len text, consumed + len)
    else if snd (nth idx pats (RNone, false)) then lex_next pats fuel (skipn len text) (consumed + len)
    else (LTok consumed idx len, skipn len text, consumed + len)
  end.
Proof. destruct text; [congruence|reflexivity]. Qed.

(* the budget runs out only after [fuel] skipped matches, each of at least one byte *)
Theorem lex_next_spec : forall fuel pats text consumed r text' c',
  lex_next pats fuel text consumed = (r, text', c') ->
  match r with
  | LTok start idx len =>
      exists t0, skips pats text consumed t0 start /\ t0 <> [] /\ 0 < len /\
                 pick pats t0 = Some (len, idx) /\ snd (nth idx pats (RNone, false)) = false /\
                 text' = skipn len t0 /\ c' = start + len
  | LInvalid loc =>
      exists t0, skips pats text consumed t0 loc /\ t0 <> [] /\
                 (pick pats t0 = None \/ exists idx, pick pats t0 = Some (0, idx))
  | LEnd => skips pats text consumed [] c'
  | LFuel => fuel <= length text
  end.
Proof.
  induction fuel as [|fuel IH]; intros pats text consumed r text' c' H.
  - (* no fuel: LFuel *) injection H as <- <- <-. apply Nat.le_0_l.
  - destruct (list_eq_dec N.eq_dec text []) as [->|Hne].
    { (* end of input: LEnd *) injection H as <- <- <-. constructor. }
    rewrite (lex_next_nonempty _ _ _ _ Hne) in H.
    destruct (pick pats text) as [[len idx]|] eqn:Hp.
    2: { (* no pattern matches: LInvalid *)
         injection H as <- <- <-. exists text. repeat split; [constructor|exact Hne|left; exact Hp]. }
    destruct (Nat.eqb_spec len 0) as [->|Hl].
    { (* an empty match: LInvalid *)
      injection H as <- <- <-. exists text. repeat split; [constructor|exact Hne|right; eauto]. }
    destruct (snd (nth idx pats (RNone, false))) eqn:Hs.
    2: { (* a match that is not skipped: LTok *)
         injection H as <- <- <-. exists text. repeat split; [constructor|exact Hne|lia|exact Hp|exact Hs]. }
    (* a skipped match: the answer of the rest of the run, with this match in front of its skips *)
    assert (Hsk : forall t0 c0, skips pats (skipn len text) (consumed + len) t0 c0 -> skips pats text consumed t0 c0).
    { intros t0 c0. apply (sk_cons pats text consumed len idx); [exact Hne|exact Hp|exact Hs|lia]. }
    apply IH in H. destruct r as [start i l|loc| |].
    + (* LTok *) destruct H as (t0 & H & Hrest). exists t0. split; [apply Hsk, H|exact Hrest].
    + (* LInvalid *) destruct H as (t0 & H & Hrest). exists t0. split; [apply Hsk, H|exact Hrest].
    + (* LEnd *) apply Hsk, H.
    + (* LFuel: the match consumed at least one byte *)
      rewrite skipn_length in H. destruct text; [congruence|cbn [length] in *; lia].
Qed.

(** progress: every match that is used consumes at least one byte, so the matcher needs at most
    |text|+1 rounds, every token strictly shortens the remaining text, and a token stream has at
    most |text| tokens *)
Lemma lex_next_fuel_enough fuel pats text consumed :
  length text < fuel -> fst (fst (lex_next pats fuel text consumed)) <> LFuel.
Proof.
  intros Hf. destruct (lex_next pats fuel text consumed) as [[r text'] c'] eqn:H.
  apply lex_next_spec in H. simpl. intros ->. lia.
Qed.

Lemma skips_shorter pats text c t0 c0 : skips pats text c t0 c0 -> length t0 <= length text.
Proof.
  induction 1 as [|text c len idx text' c' Hne Hp Hs Hl Hsk IH]; [lia|].
  rewrite skipn_length in IH. lia.
Qed.

Theorem token_progress fuel pats text consumed start idx len text' c' :
  lex_next pats fuel text consumed = (LTok start idx len, text', c') ->
  0 < len /\ length text' < length text.
Proof.
  intros H. apply lex_next_spec in H as (t0 & Hsk & Hne & Hl & Hp & _ & -> & _).
  split; [exact Hl|]. apply skips_shorter in Hsk. rewrite skipn_length.
  assert (1 <= length t0) by (destruct t0; [congruence|simpl; lia]). lia.
Qed.

Lemma tokens_S pats fuel text c :
  tokens pats (S fuel) text c =
  match lex_next pats (S (length text)) text c with
  | (LTok s i l, text', c') => LTok s i l :: tokens pats fuel text' c'
  | (LEnd, _, _) => []
  | (r, _, _) => [r]
  end.
Proof. reflexivity. Qed.

Theorem tokens_terminate : forall fuel pats text consumed,
  length text < fuel -> ~ In LFuel (tokens pats fuel text consumed).
Proof.
  induction fuel as [|fuel IH]; intros pats text consumed Hf; [lia|]. rewrite tokens_S.
  destruct (lex_next pats (S (length text)) text consumed) as [[r text'] c'] eqn:Hn.
  pose proof (lex_next_fuel_enough (S (length text)) pats text consumed (Nat.lt_succ_diag_r _)) as Hnf.
  rewrite Hn in Hnf. simpl in Hnf.
  destruct r as [s i l|loc| |]; simpl.
  - (* LTok: the rest of the stream is shorter *)
    intros [Hd|Hin]; [discriminate|]. apply token_progress in Hn as [_ Hlt].
    eapply IH; [|exact Hin]. lia.
  - (* LInvalid *) intros [Hd|[]]. discriminate.
  - (* LEnd *) intros [].
  - (* LFuel *) congruence.
Qed.
