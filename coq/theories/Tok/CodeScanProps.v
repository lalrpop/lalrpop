(** C26: facts about the action-code scanner model: literals and comments are skipped exactly, and code
    made of ordinary characters and nested delimiters ends at the first top-level terminator. *)
From Coq Require Import List BinNat Bool Arith Lia.
From LV Require Import Tok.CodeScan.
Import ListNotations.
Local Open Scope N_scope.

(** string literals: any sequence of ordinary characters and backslash-escaped characters *)
Inductive strbody : list ch -> Prop :=
| sb_nil : strbody []
| sb_plain c b : c <> BSL -> c <> QUOTE -> strbody b -> strbody (c :: b)
| sb_esc c b : strbody b -> strbody (BSL :: c :: b).

Lemma skip_string_spec body rest : strbody body -> skip_string QUOTE false (body ++ QUOTE :: rest) = Some rest.
Proof.
  induction 1 as [|c b Hb Hq _ IH|c b _ IH]; cbn [app skip_string].
  - rewrite N.eqb_refl. reflexivity.
  - apply N.eqb_neq in Hb. apply N.eqb_neq in Hq. rewrite Hb, Hq. exact IH.
  - cbn. exact IH.
Qed.

(** raw strings: the body may hold anything but a quote; it ends at the quote followed by n hashes *)
Lemma skip_raw_hashes n rest : forall m k, (0 < m)%nat -> (k + m = n)%nat ->
  skip_raw n (S k) (repeat HASH m ++ rest) = Some rest.
Proof.
  induction m as [|m IH]; intros k Hm Hk; [lia|].
  cbn [repeat app skip_raw]. rewrite N.eqb_refl.
  change (Nat.ltb 0 (S k)) with true. cbv iota.
  change (Nat.eqb (S (S k)) 0) with false. cbn [andb].
  destruct (Nat.eqb_spec (S (S k)) (S n)) as [E|E].
  - assert (m = 0%nat) by lia. subst m. reflexivity.
  - apply IH; lia.
Qed.

Lemma skip_raw_spec n body rest : ~ In QUOTE body ->
  skip_raw n 0 (body ++ QUOTE :: repeat HASH n ++ rest) = Some rest.
Proof.
  induction body as [|c b IH]; intros Hq; cbn [app skip_raw Nat.ltb Nat.leb Nat.eqb andb].
  - rewrite N.eqb_refl. destruct n as [|n]; [reflexivity|].
    apply (skip_raw_hashes (S n) rest (S n) 0%nat); lia.
  - apply not_in_cons in Hq as [Hc%not_eq_sym%N.eqb_neq Hq]. rewrite Hc. apply IH, Hq.
Qed.

(** block comments nest *)
Inductive cbody : list ch -> Prop :=
| cb_nil : cbody []
| cb_plain c b : c <> SLASH -> c <> STAR -> cbody b -> cbody (c :: b)
| cb_nest a b : cbody a -> cbody b -> cbody (SLASH :: STAR :: a ++ STAR :: SLASH :: b).

Lemma skip_block_gen body : cbody body -> forall d rest,
  skip_block (S d) BInit (body ++ STAR :: SLASH :: rest) =
  match d with O => Some rest | S _ => skip_block d BInit rest end.
Proof.
  induction 1 as [|c b Hs Ht _ IH|a b _ IHa _ IHb]; intros d rest; cbn [app].
  - cbn. destruct d; reflexivity.
  - cbn [skip_block]. apply N.eqb_neq in Hs. apply N.eqb_neq in Ht. rewrite Hs, Ht. apply IH.
  - cbn [skip_block]. change (N.eqb SLASH STAR) with false. change (N.eqb SLASH SLASH) with true.
    change (N.eqb STAR SLASH) with false. change (N.eqb STAR STAR) with true. cbv iota.
    rewrite <- app_assoc. cbn [app]. rewrite (IHa (S d)). apply IHb.
Qed.

Lemma skip_block_spec body rest : cbody body -> skip_block 1 BInit (body ++ STAR :: SLASH :: rest) = Some rest.
Proof. intros H. apply (skip_block_gen body H 0%nat rest). Qed.

(** code without literals: ordinary characters and nested delimiters *)
Definition plainb (c : ch) : bool :=
  negb (N.eqb c QUOTE || N.eqb c APOS || N.eqb c LR || N.eqb c SLASH || mem c OPENS || mem c CLOSES || N.eqb c COMMA || N.eqb c SEMI).
Definition terminator (c : ch) : Prop := c = COMMA \/ c = SEMI \/ mem c CLOSES = true.

Inductive inner : list ch -> Prop :=
| in_nil : inner []
| in_plain c s : plainb c = true -> inner s -> inner (c :: s)
| in_sep c s : c = COMMA \/ c = SEMI -> inner s -> inner (c :: s)
| in_group o cl a s : mem o OPENS = true -> mem cl CLOSES = true -> inner a -> inner s -> inner (o :: a ++ cl :: s).
Inductive top : list ch -> Prop :=
| top_nil : top []
| top_plain c s : plainb c = true -> top s -> top (c :: s)
| top_group o cl a s : mem o OPENS = true -> mem cl CLOSES = true -> inner a -> top s -> top (o :: a ++ cl :: s).

Definition starter (c : ch) : bool := N.eqb c QUOTE || N.eqb c APOS || N.eqb c LR || N.eqb c SLASH.

Lemma code_step opens closes f bal total c r : starter c = false ->
  code (S f) opens closes bal total (c :: r) =
  if mem c opens then code f opens closes (S bal) total r
  else if Nat.ltb 0 bal then code f opens closes (if mem c closes then pred bal else bal) total r
  else if N.eqb c COMMA || N.eqb c SEMI || mem c closes then Stop (total - length (c :: r))
  else code f opens closes bal total r.
Proof.
  unfold starter. intros H. apply orb_false_elim in H as [H H4]. apply orb_false_elim in H as [H H3].
  apply orb_false_elim in H as [H1 H2]. cbn [code]. rewrite H1, H2, H3, H4. reflexivity.
Qed.

Lemma mem_In c l : mem c l = true -> In c l.
Proof.
  unfold mem. rewrite existsb_exists. intros (x & Hx & E). apply N.eqb_eq in E. subst x. exact Hx.
Qed.

Lemma open_facts o : mem o OPENS = true -> starter o = false.
Proof. intros H. apply mem_In in H. destruct H as [<-|[<-|[<-|[]]]]; reflexivity. Qed.

Lemma close_facts cl : mem cl CLOSES = true -> starter cl = false /\ mem cl OPENS = false.
Proof. intros H. apply mem_In in H. destruct H as [<-|[<-|[<-|[]]]]; split; reflexivity. Qed.

Section Chars.
Variables (f bal total : nat) (r : list ch).

Lemma code_open o : mem o OPENS = true ->
  code (S f) OPENS CLOSES bal total (o :: r) = code f OPENS CLOSES (S bal) total r.
Proof. intros H. rewrite code_step, H by exact (open_facts o H). reflexivity. Qed.

Lemma code_close cl : mem cl CLOSES = true ->
  code (S f) OPENS CLOSES (S bal) total (cl :: r) = code f OPENS CLOSES bal total r.
Proof. intros H. destruct (close_facts cl H) as [Hs Ho]. rewrite code_step, Ho, H by exact Hs. reflexivity. Qed.

Lemma code_sep c : c = COMMA \/ c = SEMI ->
  code (S f) OPENS CLOSES (S bal) total (c :: r) = code f OPENS CLOSES (S bal) total r.
Proof. intros [->| ->]; reflexivity. Qed.

Lemma code_plain c : plainb c = true ->
  code (S f) OPENS CLOSES bal total (c :: r) = code f OPENS CLOSES bal total r.
Proof.
  unfold plainb. fold (starter c). intros H. apply negb_true_iff in H.
  apply orb_false_elim in H as [H Hsemi]. apply orb_false_elim in H as [H Hcomma].
  apply orb_false_elim in H as [H Hcl]. apply orb_false_elim in H as [Hs Ho].
  rewrite code_step, Ho, Hcl, Hcomma, Hsemi by exact Hs. destruct bal; reflexivity.
Qed.

Lemma code_terminator t : terminator t ->
  code (S f) OPENS CLOSES 0 total (t :: r) = Stop (total - length (t :: r)).
Proof.
  intros [->|[->|H]]; [reflexivity|reflexivity|].
  destruct (close_facts t H) as [Hs Ho]. rewrite code_step, Ho, H, orb_true_r by exact Hs. reflexivity.
Qed.
End Chars.

(* one scanner step consumes [u] whole, at any balance *)
Definition skips (u rest : list ch) : Prop :=
  forall f bal total, code (S f) OPENS CLOSES bal total (u ++ rest) = code f OPENS CLOSES bal total rest.

(* code with units: [ucode inside s rest] -- s is scanned (inside delimiters or at top level) when
   followed by [rest]; units carry their side conditions on what follows them *)
Inductive ucode : bool -> list ch -> list ch -> Prop :=
| uc_nil inside rest : ucode inside [] rest
| uc_plain inside c s rest : plainb c = true -> ucode inside s rest -> ucode inside (c :: s) rest
| uc_sep c s rest : c = COMMA \/ c = SEMI -> ucode true s rest -> ucode true (c :: s) rest
| uc_unit inside u s rest : u <> [] -> skips u (s ++ rest) -> ucode inside s rest -> ucode inside (u ++ s) rest
| uc_group inside o cl a s rest : mem o OPENS = true -> mem cl CLOSES = true ->
    ucode true a (cl :: s ++ rest) -> ucode inside s rest -> ucode inside (o :: a ++ cl :: s) rest.

(* [n <= length s]: [scan] starts [code] with one unit of fuel per character, plus one *)
Definition reaches (b : nat) (s : list ch) (b' : nat) (rest : list ch) : Prop :=
  exists n, (n <= length s)%nat /\
  forall f total, code (n + f) OPENS CLOSES b total (s ++ rest) = code f OPENS CLOSES b' total rest.

Lemma reaches_nil b rest : reaches b [] b rest.
Proof. exists 0%nat. split; [apply Nat.le_refl|reflexivity]. Qed.

Lemma reaches_app b s1 b1 s2 b2 rest :
  reaches b s1 b1 (s2 ++ rest) -> reaches b1 s2 b2 rest -> reaches b (s1 ++ s2) b2 rest.
Proof.
  intros (n1 & L1 & H1) (n2 & L2 & H2). exists (n1 + n2)%nat. split; [rewrite app_length; lia|].
  intros f total. rewrite <- Nat.add_assoc, <- app_assoc, H1. apply H2.
Qed.

Lemma reaches_cons b c b1 s b2 rest :
  (forall f total, code (S f) OPENS CLOSES b total (c :: s ++ rest) = code f OPENS CLOSES b1 total (s ++ rest)) ->
  reaches b1 s b2 rest -> reaches b (c :: s) b2 rest.
Proof.
  intros H (n & L & Hn). exists (S n). split; [apply le_n_S, L|].
  intros f total. cbn [app Nat.add]. rewrite H. apply Hn.
Qed.

Lemma reaches_unit b u rest : u <> [] -> skips u rest -> reaches b u b rest.
Proof.
  intros Hne Hu. exists 1%nat. split.
  - destruct u; [congruence|cbn; lia].
  - intros f total. apply Hu.
Qed.

Lemma ucode_reaches inside s rest : ucode inside s rest ->
  forall b, (inside = true -> b <> 0%nat) -> reaches b s b rest.
Proof.
  induction 1 as [inside rest|inside c s rest Hp _ IH|c s rest Hc _ IH|inside u s rest Hne Hu _ IH
                 |inside o cl a s rest Ho Hcl _ IHa _ IHs]; intros b Hb.
  - (* uc_nil *) apply reaches_nil.
  - (* uc_plain *) apply reaches_cons with b; [intros; apply code_plain, Hp|apply IH, Hb].
  - (* uc_sep: only inside delimiters, so the balance is not 0 *)
    destruct b as [|b]; [elim (Hb eq_refl); reflexivity|].
    apply reaches_cons with (S b); [intros; apply code_sep, Hc|apply IH, Hb].
  - (* uc_unit *) apply reaches_app with b; [apply reaches_unit; assumption|apply IH, Hb].
  - (* uc_group: the opener, the inside at balance S b, the closer, the rest *)
    apply reaches_cons with (S b); [intros; apply code_open, Ho|].
    apply reaches_app with (S b); [apply IHa; discriminate|].
    apply reaches_cons with b; [intros; apply code_close, Hcl|apply IHs, Hb].
Qed.

Theorem scan_units s term rest : ucode false s (term :: rest) -> terminator term ->
  scan (s ++ term :: rest) = Stop (length s).
Proof.
  intros Hs Ht. destruct (ucode_reaches _ _ _ Hs 0%nat) as (n & L & Hn); [discriminate|].
  unfold scan. rewrite app_length. cbn [length].
  replace (S (length s + S (length rest))) with (n + S (length s + S (length rest) - n))%nat by lia.
  rewrite Hn, code_terminator by exact Ht. cbn [length]. f_equal. lia.
Qed.

Lemma inner_ucode a : inner a -> forall rest, ucode true a rest.
Proof.
  induction 1 as [|c s Hp _ IH|c s Hc _ IH|o cl a s Ho Hcl _ IHa _ IHs]; intros rest.
  - apply uc_nil.
  - apply uc_plain; [exact Hp|apply IH].
  - apply uc_sep; [exact Hc|apply IH].
  - apply uc_group; [exact Ho|exact Hcl|apply IHa|apply IHs].
Qed.

Lemma top_ucode s : top s -> forall rest, ucode false s rest.
Proof.
  induction 1 as [|c s Hp _ IH|o cl a s Ho Hcl Ha _ IHs]; intros rest.
  - apply uc_nil.
  - apply uc_plain; [exact Hp|apply IH].
  - apply uc_group; [exact Ho|exact Hcl|apply inner_ucode, Ha|apply IHs].
Qed.

Theorem scan_balanced s term rest : top s -> terminator term -> scan (s ++ term :: rest) = Stop (length s).
Proof. intros Hs. apply scan_units, top_ucode, Hs. Qed.

(* non-vacuity: the text "f(a, [b; c]) { d }" followed by a comma *)
Example scan_example : scan [102; 40; 97; 44; 32; 91; 98; 59; 32; 99; 93; 41; 32; 123; 32; 100; 32; 125; 44; 32; 120] = Stop 18.
Proof. reflexivity. Qed.

Lemma skips_quote u rest : skip_string QUOTE false (u ++ rest) = Some rest -> skips (QUOTE :: u) rest.
Proof. intros H f bal total. cbn [app code]. rewrite H. reflexivity. Qed.

Lemma skips_apos u rest : skip_char_or_lifetime (u ++ rest) = Some rest -> skips (APOS :: u) rest.
Proof. intros H f bal total. cbn [app code]. rewrite H. reflexivity. Qed.

Lemma skips_raw_literal (u rest : list ch) :
  match u ++ rest with d :: _ => N.eqb d HASH || N.eqb d QUOTE | [] => false end = true ->
  skip_raw_literal (u ++ rest) = inl (Some rest) -> skips (LR :: u) rest.
Proof.
  unfold skips. cbn [app]. destruct (u ++ rest) as [|d t]; [discriminate|].
  intros Hd H f bal total. cbn [code]. rewrite Hd, H. reflexivity.
Qed.

Lemma skips_line u rest : skip_line (u ++ rest) = rest -> skips (SLASH :: SLASH :: u) rest.
Proof. intros H f bal total. cbn [app code]. rewrite H. reflexivity. Qed.

Lemma skips_block u rest : skip_block 1 BInit (u ++ rest) = Some rest -> skips (SLASH :: STAR :: u) rest.
Proof. intros H f bal total. cbn [app code]. rewrite H. reflexivity. Qed.

Lemma skips_string body rest : strbody body -> skips (QUOTE :: body ++ [QUOTE]) rest.
Proof. intros Hb. apply skips_quote. rewrite <- app_assoc. apply skip_string_spec, Hb. Qed.

Lemma skips_char c rest : c <> BSL -> rest <> [] -> skips [APOS; c; APOS] rest.
Proof.
  intros Hc Hr. apply skips_apos. cbn [app skip_char_or_lifetime].
  apply N.eqb_neq in Hc. rewrite Hc, N.eqb_refl. destruct rest; [congruence|reflexivity].
Qed.

Lemma skip_escaped_char_spec c body rest : ~ In APOS body -> rest <> [] ->
  skip_char_or_lifetime (BSL :: c :: body ++ APOS :: rest) = Some rest.
Proof.
  intros Hb Hr. cbn [skip_char_or_lifetime]. rewrite N.eqb_refl.
  induction body as [|x body IH]; cbn [app].
  - rewrite N.eqb_refl. destruct rest; [congruence|reflexivity].
  - apply not_in_cons in Hb as [Hx%not_eq_sym%N.eqb_neq Hb]. rewrite Hx. apply IH, Hb.
Qed.

Lemma skips_escaped_char c body rest : ~ In APOS body -> rest <> [] -> skips (APOS :: BSL :: c :: body ++ [APOS]) rest.
Proof.
  intros Hb Hr. apply skips_apos. cbn [app]. rewrite <- app_assoc. apply skip_escaped_char_spec; assumption.
Qed.

(* a lifetime: the character after the first letter is not an apostrophe *)
Lemma skips_lifetime c d rest : c <> BSL -> d <> APOS -> skips [APOS; c] (d :: rest).
Proof.
  intros Hc Hd. apply skips_apos. cbn [app skip_char_or_lifetime].
  apply N.eqb_neq in Hc. apply N.eqb_neq in Hd. rewrite Hc, Hd. reflexivity.
Qed.

Lemma take_hashes_repeat n : forall k rest, (forall t, rest <> HASH :: t) -> take_hashes (repeat HASH n ++ rest) k = ((k + n)%nat, rest).
Proof.
  induction n as [|n IH]; intros k rest Hr; cbn [repeat app].
  - rewrite Nat.add_0_r. destruct rest as [|c r]; [reflexivity|]. cbn [take_hashes].
    destruct (N.eqb_spec c HASH) as [->|_]; [elim (Hr r); reflexivity|reflexivity].
  - cbn [take_hashes]. rewrite N.eqb_refl, IH, Nat.add_succ_r by exact Hr. reflexivity.
Qed.

Lemma skip_raw_literal_spec n body rest : ~ In QUOTE body ->
  skip_raw_literal (repeat HASH n ++ QUOTE :: body ++ QUOTE :: repeat HASH n ++ rest) = inl (Some rest).
Proof.
  intros Hb. unfold skip_raw_literal. rewrite take_hashes_repeat by discriminate.
  rewrite N.eqb_refl, skip_raw_spec by exact Hb. reflexivity.
Qed.

Lemma skips_raw n body rest : ~ In QUOTE body ->
  skips (LR :: repeat HASH n ++ QUOTE :: body ++ QUOTE :: repeat HASH n) rest.
Proof.
  intros Hb. assert (E : (repeat HASH n ++ QUOTE :: body ++ QUOTE :: repeat HASH n) ++ rest =
                         repeat HASH n ++ QUOTE :: body ++ QUOTE :: repeat HASH n ++ rest).
  { rewrite <- app_assoc. cbn [app]. rewrite <- app_assoc. reflexivity. }
  apply skips_raw_literal; rewrite E; [destruct n; reflexivity|apply skip_raw_literal_spec, Hb].
Qed.

Lemma skips_r d rest : N.eqb d HASH = false -> N.eqb d QUOTE = false -> skips [LR] (d :: rest).
Proof. intros H1 H2 f bal total. cbn [app code]. rewrite H1, H2. reflexivity. Qed.

Lemma skip_line_spec body rest : ~ In NL body -> skip_line (body ++ NL :: rest) = NL :: rest.
Proof.
  induction body as [|c b IH]; intros Hb; cbn [app skip_line].
  - rewrite N.eqb_refl. reflexivity.
  - apply not_in_cons in Hb as [Hc%not_eq_sym%N.eqb_neq Hb]. rewrite Hc. apply IH, Hb.
Qed.

Lemma skips_line_comment body rest : ~ In NL body -> skips (SLASH :: SLASH :: body) (NL :: rest).
Proof. intros Hb. apply skips_line, skip_line_spec, Hb. Qed.

Lemma skips_block_comment body rest : cbody body -> skips (SLASH :: STAR :: body ++ [STAR; SLASH]) rest.
Proof. intros Hb. apply skips_block. rewrite <- app_assoc. apply skip_block_spec, Hb. Qed.

Lemma skips_slash d rest : N.eqb d SLASH = false -> N.eqb d STAR = false -> skips [SLASH] (d :: rest).
Proof. intros H1 H2 f bal total. cbn [app code]. rewrite H1, H2. reflexivity. Qed.

(* non-vacuity: a call whose arguments are a string, a char, a raw string with one hash and an
   identifier followed by a block comment, each holding a delimiter; then a semicolon *)
Example units_example :
  let s := [102; 40; 34; 125; 34; 44; 39; 123; 39; 44; 114; 35; 34; 97; 34; 125; 34; 35; 44; 120; 47; 42; 41; 42; 47; 41] in
  scan (s ++ [59; 10]) = Stop (length s).
Proof. reflexivity. Qed.
